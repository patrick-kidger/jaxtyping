(* IdemFacts.v -- C04's second half for PyTrees: repeating a PyTree check that passed passes again and changes no
   binding, for array leaf types (PyTree[Dtype[Array, dims]] and PyTree[Dtype[Array, dims], structure], '?' axes included).
   The flatten phase runs in "array type only" mode and is independent of the bindings; a structure name bound by the
   first run compares equal in the second; the leaf loop is a walk of array checks (each under its own '?' label), which
   re-accepts from any later state of the context (TwoPassFacts.instancecheck_acc_inv).
   Also C08 for array leaves: without a structure name the whole check is one walk (model/Check.v) over the leaves. *)
From JT Require Import model.PyTreeCheck proofs.CheckFacts proofs.TwoPassFacts proofs.TreeFacts proofs.PyTreeFacts.

Section Idem.
Variables (st : symtab) (a : annot).
Hypothesis Hwf : wf_annot a.

Definition val_of (x : ptree) : value := match x with Leaf (PArr v) => v | _ => not_array end.

Lemma leafmatch_arr x s : leafmatch st (LArr a) x s = arr_check st a (val_of x) s.
Proof. destruct x as [[]|]; reflexivity. Qed.

Lemma set_top_top stack path flat f r : stack = f :: r -> set_top (mkps stack path flat) f = mkps stack path flat.
Proof. intros ->. reflexivity. Qed.

(* in flatten mode an array check looks at the array type only and leaves the store alone *)
Definition fv (v : value) : verdict := if negb (if a_any a then v_attrs v else v_inst v) then Rej else Acc.

Definition isl := leafmatch st (LArr a).

Lemma isl_flat x stack path : isl x (mkps stack path true) = (fv (val_of x), mkps stack path true).
Proof.
  destruct Hwf as [Hskip _]. unfold isl. rewrite leafmatch_arr, arr_check_eq. unfold instancecheck, fv. cbn [ps_flat]. rewrite Hskip.
  destruct (negb _); cbn [get_memo]; now rewrite <- surjective_pairing, set_top_top_frame.
Qed.

Lemma isl_node k cs stack path : isl (Node k cs) (mkps stack path true) = (Rej, mkps stack path true).
Proof. rewrite isl_flat. unfold fv. now destruct (a_any a). Qed.

(* the flatten phase: same leaves and same structure whatever the bindings, store untouched, never raises *)
Lemma flatten_list_flat cs :
  Forall (fun c => exists lx, forall stk p, flatten_with isl c (mkps stk p true) = (Some lx, mkps stk p true, None)) cs ->
  exists lxs, forall stk p, flatten_list isl cs (mkps stk p true) = (Some lxs, mkps stk p true, None).
Proof.
  induction 1 as [|c r [[lv d] Hc] _ [[lvs ds] IH]]; [exists ([], []); reflexivity|].
  exists ((lv ++ lvs)%list, d :: ds). intros stk p. cbn [flatten_list]. rewrite Hc, IH. reflexivity.
Qed.

Lemma flatten_phase x : exists lx, forall stk p, flatten_with isl x (mkps stk p true) = (Some lx, mkps stk p true, None).
Proof.
  induction x as [v|k cs IH] using tree_ind'.
  - exists ([Leaf v], star). intros stk p. rewrite flatten_with_eq, isl_flat. unfold fv. now destruct (negb _).
  - destruct (flatten_list_flat cs IH) as [[lvs ds] Hl]. exists (lvs, Node k ds). intros stk p.
    now rewrite flatten_with_eq, isl_node, Hl.
Qed.

Lemma flatten_flat x : forall st1 p1 st2 p2, exists fl,
  flatten_with isl x (mkps st1 p1 true) = (fl, mkps st1 p1 true, None) /\
  flatten_with isl x (mkps st2 p2 true) = (fl, mkps st2 p2 true, None).
Proof. intros st1 p1 st2 p2. destruct (flatten_phase x) as [lx Hx]. exists (Some lx). split; apply Hx. Qed.

(* a structure name bound (or compared) by the first run compares equal in the second *)
Lemma structure_step_again spec sx tm tm' : structure_step spec sx tm = StOk tm' -> structure_step spec sx tm' = StOk tm'.
Proof.
  destruct spec as [n|pre suf names]; intros H.
  - cbn [structure_step] in *. destruct (aget tm n) as [prev|] eqn:E.
    + destruct (tdef_eqb prev sx) eqn:Eq; inversion H; subst tm'. now rewrite E, Eq.
    + inversion H; subst tm'. now rewrite aget_aset_same, tdef_eqb_refl.
  - (* a composite never binds *)
    assert (tm' = tm) as ->; [|exact H]. cbn [structure_step] in H. destruct (lookup_all tm names); [|discriminate].
    destruct pre; [|destruct suf]; [destruct (is_prefix _ _) | destruct (suffix_check _ _) | destruct (tdef_eqb _ _)]; congruence.
Qed.

Lemma struct_res_again sopt sx tm tm' : struct_res sopt sx tm = StOk tm' -> struct_res sopt sx tm' = StOk tm'.
Proof. destruct sopt; cbn [struct_res]; [apply structure_step_again | congruence]. Qed.

(* the leaf loop: from the store with top frame (m, t), no leaf position, flatten mode off *)
Section Loop.
Variables (sopt : option string) (t : alist tdef) (r : list (memo * alist tdef)).
Definition S (m : memo) : pstore := mkps ((m, t) :: r) None false.

Lemma loop_step x lr i m :
  leaf_loop (leafmatch st (LArr a)) sopt (x :: lr) i (S m) =
  let lbl := option_map (label_of i) sopt in
  let '(vd, s1) := instancecheck false lbl st a (val_of x) [m] in
  match vd with
  | Acc => leaf_loop (leafmatch st (LArr a)) sopt lr (Datatypes.S i) (S (get_memo s1))
  | _ => (vd, mkps ((get_memo s1, t) :: r) lbl false)
  end.
Proof.
  unfold S at 1. cbn [leaf_loop ps_path]. rewrite leafmatch_arr, arr_check_eq.
  destruct sopt; cbn [with_path top_frame ps_stack ps_path ps_flat fst option_map];
    destruct (instancecheck _ _ _ _ _ _) as [[] s1]; reflexivity.
Qed.

Lemma loop_again lv : forall i m s',
  leaf_loop (leafmatch st (LArr a)) sopt lv i (S m) = (Acc, s') ->
  exists m', s' = S m' /\ mle m m' /\
             forall mx, mle m' mx -> leaf_loop (leafmatch st (LArr a)) sopt lv i (S mx) = (Acc, S mx).
Proof.
  induction lv as [|x lr IH]; intros i m s' H.
  - inversion H; subst. exists m. split; [reflexivity|]. split; [apply mle_refl | reflexivity].
  - rewrite loop_step in H. cbv zeta in H.
    destruct (instancecheck false _ st a (val_of x) [m]) as [[] s1] eqn:E; try discriminate.
    destruct (instancecheck_acc_inv _ st a (val_of x) m [] s1 Hwf E) as (m1 & -> & Hle1 & Hag1).
    destruct (IH _ _ _ H) as (m' & -> & Hle' & Hag').
    exists m'. split; [reflexivity|]. split; [eapply mle_trans; eauto|].
    intros mx Hx. rewrite loop_step. cbv zeta. rewrite (Hag1 mx (mle_trans _ _ _ Hle' Hx)). now apply Hag'.
Qed.
End Loop.

(* the first run read backwards, the second forwards: the same leaves, the structure name now bound, the loop again *)
Theorem pytree_array_leaves_idempotent sopt x m t r s' :
  leafmatch st (LPyTree (LArr a) sopt) x (mkps ((m, t) :: r) None false) = (Acc, s') ->
  leafmatch st (LPyTree (LArr a) sopt) x s' = (Acc, s').
Proof.
  intros H. destruct (leafmatch_pytree_cases st (LArr a) sopt x (mkps ((m, t) :: r) None false)) as [[-> _]|E]; [reflexivity|].
  rewrite E in H. destruct (leafmatch_pytree_cases st (LArr a) sopt x s') as [[_ ->] | ->]; [reflexivity|].
  destruct (pytree_body_cases _ _ _ _ _ _ _ H) as (fl & s1 & e & Ef & [[Hv _] | (lv & sx & t' & s4 & -> & Es & El & ->)]); [now destruct Hv|].
  destruct (flatten_phase x) as [lx Hx]. change (with_flat _ true) with (mkps ((m, t) :: r) None true) in Ef.
  rewrite Hx in Ef. injection Ef as -> <- _.
  destruct (loop_again _ _ _ _ _ _ _ El) as (m' & -> & _ & Hag).
  exact (pytree_body_run st (LArr a) sopt x (S t' r m') lv sx _ _ t' Acc _
           (Hx _ _) (struct_res_again _ _ _ _ Es) (Hag m' (mle_refl m'))).
Qed.

Definition uses (lv : list ptree) : list (annot * value) := map (fun x => (a, val_of x)) lv.

(* the leaves: what the flatten phase yields (it does not depend on the bindings, flatten_flat) *)
Definition array_leaves (x : ptree) : list ptree :=
  match fst (fst (flatten_with isl x (mkps [] None true))) with Some (lv, _) => lv | None => [] end.

Lemma loop_is_walk t r lv : forall i m,
  leaf_loop (leafmatch st (LArr a)) None lv i (S t r m) =
  (fst (walk None st (uses lv) [m]), S t r (get_memo (snd (walk None st (uses lv) [m])))).
Proof.
  induction lv as [|x lr IH]; intros i m; [reflexivity|].
  rewrite loop_step. cbn [uses map walk option_map]. fold (uses lr).
  destruct (instancecheck_state None st false a (val_of x) [m]) as [m1 [E1 _]].
  destruct (instancecheck false None st a (val_of x) [m]) as [[] s1]; cbn [snd set_memo] in E1; subst s1; try reflexivity. apply IH.
Qed.

Lemma uses_wf lv : Forall (fun u => wf_annot (fst u)) (uses lv).
Proof. induction lv; constructor; auto. Qed.

(* C08 "array-annotated leaves share axis bindings with one another and with the rest of the context": inside a context
   PyTree[Dtype[Array, dims]] is ONE walk over its array leaves, whose bindings are kept if it accepts *)
Lemma pytree_arrays_as_walk x m t r :
  leafmatch st (LPyTree (LArr a) None) x (S t r m) =
  let '(vd, sw) := walk None st (uses (array_leaves x)) [m] in
  (vd, S t r match vd with Acc => get_memo sw | _ => m end).
Proof.
  destruct (flatten_phase x) as [[lv sx] Hx]. unfold array_leaves. rewrite Hx. cbn [fst].
  destruct (leafmatch_pytree_cases st (LArr a) None x (S t r m)) as [[-> ->] | ->].
  - (* a top-level None has no leaves *)
    specialize (Hx [] None). rewrite flatten_with_eq, isl_node in Hx. now injection Hx as <- _.
  - rewrite (pytree_body_run st (LArr a) None x (S t r m) lv sx _ _ t _ _ (Hx _ _) eq_refl (loop_is_walk t r lv 0 m)).
    now destruct (walk None st (uses lv) [m]) as [[] sw].
Qed.
End Idem.
