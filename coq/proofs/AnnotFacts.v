(* AnnotFacts.v -- what make_array builds from a flat and from a nested annotation, as equations; from them the nest law (C15) and what
   the reducer rebuilds (C20).  The union and scalar laws of C15 are proved in props/C15.v from the lemmas here. *)
From JT Require Import model.Annot proofs.BaseFacts proofs.DimLangFacts.

(* C15_parse_concat, the shape half of the nesting law: `s2 s1` parses to the concatenation, with the
   variadic index of s1 shifted; two variadics are an error *)
Theorem parse_concat s1 s2 d1 d2 :
  parse_dims s1 = Ok d1 -> parse_dims s2 = Ok d2 ->
  match ivar d1, ivar d2 with
  | Some _, Some _ => exists c, parse_dims (s2 ++ " " ++ s1) = Err c
  | Some i, None => parse_dims (s2 ++ " " ++ s1) = Ok (mkdims (ds d2 ++ ds d1) (Some (i + length (ds d2))%nat))
  | None, iv => parse_dims (s2 ++ " " ++ s1) = Ok (mkdims (ds d2 ++ ds d1) iv)
  end.
Proof.
  unfold parse_dims. rewrite (split_ws_sep s2 " " s1), parse_tokens_app_eq by (reflexivity || discriminate).
  destruct (parse_tokens (split_ws s1) 0 None) as [[dl1 iv1]|c] eqn:E1; [|discriminate].
  destruct (parse_tokens (split_ws s2) 0 None) as [[dl2 iv2]|c] eqn:E2; [|discriminate].
  intros [= <-] [= <-]. cbn [ivar ds Nat.add]. rewrite <- (parse_tokens_length _ _ _ _ _ E2).
  (* the tokens of s1, read from where those of s2 end *)
  pose proof (parse_tokens_shift (split_ws s1) (length dl2) 0 None) as Hs. rewrite E1 in Hs. cbn in Hs.
  destruct iv2 as [j|].
  - apply parse_tokens_seen with (i := j) in Hs. destruct iv1; cbn in Hs.
    + destruct Hs as [c ->]. eauto.
    + now rewrite Hs.
  - rewrite Hs. destruct iv1; reflexivity.
Qed.

Definition wf_built (b : built) : Prop := parse_dims (b_dimstr b) = Ok (b_dims b).

(* the two flat array types, in the form the reducer writes them *)
Lemma flat_cases A : (A = TAny \/ exists id, A = TClass id) -> exists (a : bool) c, A = if a then TAny else TClass c.
Proof. intros [->|[id ->]]; [exists true, 0%nat | exists false, id]; reflexivity. Qed.

Lemma make_array_flat D (a : bool) c s :
  make_array D (if a then TAny else TClass c) s =
  match parse_dims s with
  | Err e => MErr e
  | Ok d => MBuilt (mkbuilt a (if a then 0%nat else c) D d s D)
  end.
Proof. unfold make_array. destruct (parse_dims s), a; reflexivity. Qed.

Lemma make_array_flat_built D A s b :
  (A = TAny \/ exists id, A = TClass id) -> make_array D A s = MBuilt b -> wf_built b /\ b_dtypes b = D.
Proof.
  intros (a & c & ->)%flat_cases. rewrite make_array_flat.
  destruct (parse_dims s) as [d|e] eqn:E; [|discriminate]. intros [= <-]. split; [exact E | reflexivity].
Qed.

Definition inter (outer inner : option (list string)) : option (option (list string)) :=
  match outer, inner with
  | None, x => Some x
  | Some o, None => Some (Some o)
  | Some o, Some i => match filter (fun x => smem x i) o with [] => None | l => Some (Some l) end
  end.

(* nesting in b1 is building, with the intersected dtypes, from the concatenated dim string *)
Lemma make_array_nested D2 b1 s2 : wf_built b1 ->
  make_array D2 (TNested b1) s2 =
  match parse_dims s2, inter D2 (b_dtypes b1) with
  | Err e, _ => MErr e
  | Ok _, None => MErr 20
  | Ok _, Some dt =>
      match parse_dims (s2 ++ " " ++ b_dimstr b1) with
      | Err _ => MErr 21
      | Ok d => MBuilt (mkbuilt (b_any b1) (b_cls b1) dt d (s2 ++ " " ++ b_dimstr b1) D2)
      end
  end.
Proof.
  intros W. unfold make_array. fold (inter D2 (b_dtypes b1)).
  destruct (parse_dims s2) as [d2|e] eqn:E2; [|reflexivity].
  destruct (inter D2 (b_dtypes b1)) as [dt|]; [|reflexivity].
  pose proof (parse_concat _ _ _ _ W E2) as Hc.
  destruct (ivar (b_dims b1)), (ivar d2); [destruct Hc as [e ->] | rewrite Hc ..]; reflexivity.
Qed.

Lemma smem_filter x o i : smem x (filter (fun y => smem y i) o) = smem x o && smem x i.
Proof. apply Bool.eq_iff_eq_true. unfold smem. rewrite andb_true_iff, !existsb_eqb_In, filter_In, existsb_eqb_In. reflexivity. Qed.

Lemma getitem_all_some dtypes s : forall arrs l,
  getitem_all dtypes arrs s = inl (Some l) ->
  l = filter (fun m => match m with MNotMade => false | _ => true end) (map (fun a => make_array dtypes a s) arrs) /\
  Forall (fun a => forall c, make_array dtypes a s <> MErr c) arrs.
Proof.
  induction arrs as [|a r IH]; intros l H; cbn in H.
  - injection H as <-. split; [reflexivity | constructor].
  - cbn [map filter]. rewrite Forall_cons_iff.
    (* the member is no error, and the rest was made *)
    destruct (make_array dtypes a s);
      (destruct (getitem_all dtypes r s) as [[l1|]|]; try discriminate; injection H as <-;
       destruct (IH _ eq_refl) as [<- Hf]; repeat split; discriminate || assumption).
Qed.

Lemma odt_eqb_eq a b : odt_eqb a b = true -> a = b.
Proof. destruct a, b; cbn; try congruence. intros H. f_equal. now apply all2b_eqb_eq. Qed.

(* what comes back is the annotation itself (make_array gives an Any-annotation the class 0) *)
Lemma reduce_rebuild_eq b : wf_built b ->
  reduce_rebuild b =
  MBuilt (mkbuilt (b_any b) (if b_any b then 0%nat else b_cls b) (b_dtypes b) (b_dims b) (b_dimstr b) (b_cat b)).
Proof.
  intros W. unfold reduce_rebuild. rewrite make_array_flat, W. cbn [b_dtypes b_any b_cls b_dims b_dimstr b_cat].
  destruct (odt_eqb (b_cat b) (b_dtypes b)) eqn:Eo; [|reflexivity].
  apply odt_eqb_eq in Eo. now rewrite <- Eo.
Qed.

(* the reducer before the fix commit (x.dtype[x.array_type, x.dim_str]) widened nested annotations *)
Definition reduce_rebuild_old (b : built) : mres :=
  make_array (b_cat b) (if b_any b then TAny else TClass (b_cls b)) (b_dimstr b).
