(* DimLangFacts.v -- the dim-string parser of model/DimLang.v: whitespace, runs of modifier characters, the `name=`
   prefix, the legal combinations of modifiers and axis kind, and how parse_tokens keeps track of the one variadic axis
   (C14; the parse_tokens lemmas are what C01, C15 and C20 use). *)
From JT Require Import model.DimLang proofs.BaseFacts.
From Coq Require Import Lia Permutation.

Lemma tokens_app_ws (a b : string) (w : ascii) (cur : string) :
  is_ws w = true ->
  tokens (a ++ String w b) cur = (tokens a cur ++ tokens b "")%list.
Proof.
  intros Hw. revert cur. induction a as [|c a IH]; intros cur; cbn [append tokens].
  - rewrite Hw. reflexivity.
  - destruct (is_ws c).
    + rewrite IH. rewrite app_assoc. reflexivity.
    + apply IH.
Qed.

Theorem split_ws_leading (w b : string) :
  all_chars is_ws w = true -> split_ws (w ++ b) = split_ws b.
Proof.
  unfold split_ws. induction w as [|c w IH]; cbn; [reflexivity|].
  intros [Hc Hw]%andb_true_iff. rewrite Hc. exact (IH Hw).
Qed.

Lemma tokens_all_ws (a : string) : all_chars is_ws a = true -> tokens a "" = [].
Proof. intros H. rewrite <- (append_nil_r a). exact (split_ws_leading a "" H). Qed.

Theorem split_ws_sep (a w b : string) :
  all_chars is_ws w = true -> w <> "" ->
  split_ws (a ++ w ++ b) = (split_ws a ++ split_ws b)%list.
Proof.
  intros Hall Hne. destruct w as [|c w]; [congruence|].
  cbn in Hall. apply andb_true_iff in Hall as [Hc Hw].
  unfold split_ws. cbn [append]. rewrite (tokens_app_ws _ _ _ _ Hc).
  f_equal. exact (split_ws_leading w b Hw).
Qed.

Theorem split_ws_trailing (a w : string) :
  all_chars is_ws w = true -> split_ws (a ++ w) = split_ws a.
Proof.
  intros Hall. destruct w as [|c w]; [now rewrite append_nil_r|].
  rewrite <- (append_nil_r (String c w)), split_ws_sep by (assumption || discriminate). apply app_nil_r.
Qed.

(* a run of modifier characters, as a list *)
Inductive modc := MHash | MStar | MUnder | MQuest.

Definition char_of_mod (m : modc) : ascii :=
  match m with MHash => "#" | MStar => "*" | MUnder => "_" | MQuest => "?" end%char.

Fixpoint mods (m : list modc) : string :=
  match m with [] => "" | x :: r => String (char_of_mod x) (mods r) end.

Definition flag_of (x : modc) (f : flags) : bool :=
  match x with MHash => f_bc f | MStar => f_var f | MUnder => f_anon f | MQuest => f_tp f end.

Definition set_flag (x : modc) (f : flags) : option flags :=
  if flag_of x f then None
  else Some match x with
            | MHash => mkflags true (f_var f) (f_anon f) (f_tp f)
            | MStar => mkflags (f_bc f) true (f_anon f) (f_tp f)
            | MUnder => mkflags (f_bc f) (f_var f) true (f_tp f)
            | MQuest => mkflags (f_bc f) (f_var f) (f_anon f) true
            end.

(* what the loop of `strip` does to the flags while it reads such a run; None when a modifier comes a second time *)
Fixpoint apply_mods (m : list modc) (f : flags) : option flags :=
  match m with
  | [] => Some f
  | x :: r => match set_flag x f with Some f' => apply_mods r f' | None => None end
  end.

(* the error `strip` gives for a modifier that comes a second time *)
Definition dup_err (x : modc) : nat := match x with MHash => 4 | MStar => 5 | MUnder => 6 | MQuest => 7 end.

Lemma strip_mods (m : list modc) (base : string) : forall f,
  match apply_mods m f with
  | Some f' => strip (mods m ++ base) f = strip base f'
  | None => exists x, strip (mods m ++ base) f = SErr (dup_err x)
  end.
Proof.
  induction m as [|x m IH]; intros f; [reflexivity|].
  cbn [mods append apply_mods]. unfold set_flag.
  destruct x; cbn [strip char_of_mod flag_of Ascii.eqb Bool.eqb];
    match goal with |- context [if ?b then SErr _ else _] => destruct b end; try apply IH.
  - now exists MHash.
  - now exists MStar.
  - now exists MUnder.
  - now exists MQuest.
Qed.

Theorem apply_mods_perm m1 m2 : Permutation m1 m2 -> forall f, apply_mods m1 f = apply_mods m2 f.
Proof.
  induction 1 as [| x l l' _ IH | x y l | l l' l'' _ IH1 _ IH2]; intros f; cbn [apply_mods].
  - reflexivity.
  - destruct (set_flag x f); [apply IH | reflexivity].
  - (* two modifiers set their flags in either order; the same one twice fails in both *)
    destruct f as [[] [] [] []], x, y; reflexivity.
  - now rewrite IH1.
Qed.

Lemma set_flag_twice x f f' : set_flag x f = Some f' -> set_flag x f' = None.
Proof. unfold set_flag. destruct (flag_of x f); [discriminate|]. intros [= <-]. now destruct x. Qed.

(* a repeated modifier is an error, wherever it stands *)
Lemma apply_mods_nodup m : forall f f', apply_mods m f = Some f' -> NoDup m.
Proof.
  induction m as [|x m IH]; intros f f' H; constructor.
  - (* a later x can be brought next to this one, where it finds its flag set *)
    intros (l1 & l2 & ->)%in_split.
    rewrite (apply_mods_perm _ (x :: x :: l1 ++ l2)) in H by (constructor; symmetry; apply Permutation_middle).
    cbn [apply_mods] in H. destruct (set_flag x f) as [f1|] eqn:E; [|discriminate]. now rewrite (set_flag_twice _ _ _ E) in H.
  - cbn [apply_mods] in H. destruct (set_flag x f); [eauto | discriminate].
Qed.

(* the whole-token tests of parse_token look through a run of modifiers *)
Lemma mem_char_mods c m base :
  (forall x, char_of_mod x <> c) -> mem_char c (mods m ++ base) = mem_char c base.
Proof.
  intros H. induction m as [|x m IH]; [reflexivity|]. cbn [mods append mem_char].
  destruct (Ascii.eqb_spec c (char_of_mod x)) as [E|E]; [exfalso; eapply H; eauto|]. exact IH.
Qed.

Lemma has_dots_mods m base : has_dots (mods m ++ base) = has_dots base.
Proof.
  induction m as [|x m IH]; [reflexivity|]. cbn [mods append].
  destruct x; cbn [char_of_mod has_dots]; exact IH.
Qed.

(* so this is parse_token on a token that starts with a modifier (which is not the bare `...`) *)
Lemma parse_token_mods x m base :
  parse_token (mods (x :: m) ++ base) =
  if mem_char "," base && negb (mem_char "(" base) then Err 1
  else if ends_with_char "#" (mods (x :: m) ++ base) then Err 2
  else if has_dots base then Err 3
  else match strip (mods (x :: m) ++ base) no_flags with
       | SErr c => Err c
       | SDone f rest => Ok (f, rest, classify rest)
       end.
Proof. unfold parse_token. rewrite !mem_char_mods by (intros []; discriminate). rewrite has_dots_mods. now destruct x. Qed.

(* results of parse_token agree up to the identity of the error *)
Definition res_equiv {A} (a b : res A) : Prop :=
  match a, b with Ok x, Ok y => x = y | Err _, Err _ => True | _, _ => False end.

Lemma res_equiv_refl {A} (a : res A) : res_equiv a a.
Proof. destruct a; cbn; auto. Qed.

(* non-empty, and the first character is neither a modifier character nor '=' *)
Definition plain_start (s : string) : bool :=
  match s with
  | EmptyString => false
  | String c _ => negb (Ascii.eqb c "#" || Ascii.eqb c "*" || Ascii.eqb c "_" || Ascii.eqb c "?" || Ascii.eqb c "=")%char
  end.

Lemma count_char_app c a b : count_char c (a ++ b) = count_char c a + count_char c b.
Proof. induction a as [|d a IH]; cbn [append count_char]; [reflexivity | rewrite IH; apply Nat.add_assoc]. Qed.

Lemma after_eq_app name rest : count_char "=" name = 0 -> after_eq (name ++ String "=" rest) = rest.
Proof.
  induction name as [|c name IH]; cbn [append after_eq count_char]; [reflexivity|].
  rewrite Ascii.eqb_sym. destruct (Ascii.eqb c "="); [intros [=] | exact IH].
Qed.

(* `_, elem = elem.split("=")`: where no modifier stands first, the loop of `strip` goes on after the one '=', if there is one *)
Lemma strip_plain s f : plain_start s = true ->
  strip s f = if Nat.eqb (count_char "=" s) 1 then strip (after_eq s) f else SDone f s.
Proof.
  destruct s as [|c r]; [discriminate|]. cbn [plain_start strip after_eq].
  destruct (Ascii.eqb c "#"), (Ascii.eqb c "*"), (Ascii.eqb c "_"), (Ascii.eqb c "?"), (Ascii.eqb c "="); try discriminate. intros _.
  destruct (Nat.eqb (count_char "=" (String c r)) 1); [|reflexivity].
  (* the inner loop of `strip`, which looks for the '=' *)
  induction r as [|d r IH]; cbn [after_eq]; [reflexivity|]. destruct (Ascii.eqb d "="); [reflexivity | exact IH].
Qed.

(* the legal combinations of modifiers and axis kind: build_dim succeeds on exactly these *)
Theorem build_dim_ok_iff sv f rest ty d :
  build_dim sv (f, rest, ty) = Ok d <->
  (f_var f && sv = false) /\
  match ty with
  | TFixed z => f_var f = false /\ f_anon f = false /\ f_tp f = false /\ d = DFixed z (f_bc f)
  | TSym => f_var f = false /\ f_anon f = false /\ f_tp f = false /\ d = DSym rest (f_bc f)
  | TNamed =>
      (f_anon f = true /\ f_bc f = false /\ d = (if f_var f then DVarAnon else DAnon)) \/
      (f_anon f = false /\ d = (if f_var f then DVarNamed rest (f_bc f) (f_tp f) else DNamed rest (f_bc f) (f_tp f)))
  end.
Proof.
  unfold build_dim. destruct (f_var f && sv); [intuition discriminate|].
  (* in each branch, the flags that branch tests *)
  destruct ty; [destruct (f_anon f), (f_bc f), (f_var f) | destruct (f_var f), (f_anon f), (f_tp f) ..];
    (split; [intros [= <-]; auto | intros H; decompose [and or] H; congruence]).
Qed.

Lemma unnamed_modifiers_rejected sv f rest ty :
  ty <> TNamed -> f_var f || f_anon f || f_tp f = true -> exists c, build_dim sv (f, rest, ty) = Err c.
Proof.
  intros Hty H. destruct (build_dim sv (f, rest, ty)) as [d|c] eqn:E; [|eauto].
  apply build_dim_ok_iff in E as [_ E]. destruct ty; [congruence | destruct E as (Hv & Ha & Ht & _) ..].
  all: rewrite Hv, Ha, Ht in H; discriminate.
Qed.

Lemma build_dim_variadic sv t d : build_dim sv t = Ok d -> is_variadic d = f_var (fst (fst t)).
Proof.
  destruct t as [[f rest] ty]. intros [_ H]%build_dim_ok_iff. cbn [fst].
  destruct ty; decompose [and or] H; subst d; destruct (f_var f); cbn; congruence.
Qed.

Lemma build_dim_seen t : build_dim true t = if f_var (fst (fst t)) then Err 8 else build_dim false t.
Proof. destruct t as [[f rest] ty]. unfold build_dim. cbn [fst]. destruct (f_var f); reflexivity. Qed.

Lemma build_dim_seen_ok t d : build_dim true t = Ok d -> is_variadic d = false.
Proof.
  intros B. rewrite (build_dim_variadic _ _ _ B). rewrite build_dim_seen in B.
  destruct (f_var (fst (fst t))); [discriminate | reflexivity].
Qed.

Definition has_iv (o : option nat) : bool := match o with Some _ => true | None => false end.

Lemma parse_tokens_cons_ok e r index iv dl ivf :
  parse_tokens (e :: r) index iv = Ok (dl, ivf) ->
  exists t d dl', parse_token e = Ok t /\ build_dim (has_iv iv) t = Ok d /\
    parse_tokens r (S index) (if is_variadic d then Some index else iv) = Ok (dl', ivf) /\ dl = d :: dl'.
Proof.
  cbn [parse_tokens]. fold (has_iv iv).
  destruct (parse_token e) as [t|c]; [|discriminate].
  destruct (build_dim (has_iv iv) t) as [d|c] eqn:B; [|discriminate].
  destruct (parse_tokens r _ _) as [[dl' ivf']|c] eqn:E; [|discriminate].
  intros [= <- <-]. exists t, d, dl'. auto.
Qed.

Lemma parse_tokens_app_eq ta : forall tb index iv,
  parse_tokens (ta ++ tb) index iv =
  match parse_tokens ta index iv with
  | Err c => Err c
  | Ok (dl, iv') =>
      match parse_tokens tb (index + length ta) iv' with
      | Err c => Err c
      | Ok (dl', iv'') => Ok ((dl ++ dl')%list, iv'')
      end
  end.
Proof.
  induction ta as [|e r IH]; intros tb index iv; cbn [app parse_tokens length].
  - rewrite Nat.add_0_r. destruct (parse_tokens tb index iv) as [[dl' iv'']|c]; reflexivity.
  - destruct (parse_token e) as [t|c]; [|reflexivity].
    destruct (build_dim _ t) as [d|c]; [|reflexivity].
    rewrite IH, Nat.add_succ_comm.
    destruct (parse_tokens r (S index) _) as [[dl iv']|c]; [|reflexivity].
    destruct (parse_tokens tb _ iv') as [[dl' iv'']|c]; reflexivity.
Qed.

Lemma parse_tokens_app (t1 t2 : list string) :
  forall index iv d1 iv1,
  parse_tokens t1 index iv = Ok (d1, iv1) ->
  parse_tokens (t1 ++ t2)%list index iv =
  match parse_tokens t2 (index + length t1) iv1 with
  | Err c => Err c
  | Ok (d2, iv2) => Ok ((d1 ++ d2)%list, iv2)
  end.
Proof. intros index iv d1 iv1 H. rewrite parse_tokens_app_eq, H. reflexivity. Qed.

Lemma parse_tokens_length t : forall index iv d ivf,
  parse_tokens t index iv = Ok (d, ivf) -> length d = length t.
Proof.
  induction t as [|e t IH]; intros index iv d ivf H.
  - inversion H; reflexivity.
  - apply parse_tokens_cons_ok in H as (tk & dd & dl & _ & _ & E & ->).
    cbn. f_equal. exact (IH _ _ _ _ E).
Qed.

Lemma parse_tokens_shift toks k : forall index iv,
  parse_tokens toks (index + k) (option_map (fun i => i + k) iv) =
  match parse_tokens toks index iv with
  | Err c => Err c
  | Ok (dl, ivf) => Ok (dl, option_map (fun i => i + k) ivf)
  end.
Proof.
  induction toks as [|e r IH]; intros index iv; cbn [parse_tokens]; [reflexivity|].
  destruct (parse_token e) as [t|c]; [|reflexivity].
  replace (match option_map _ iv with Some _ => true | None => false end) with (has_iv iv) by (destruct iv; reflexivity).
  fold (has_iv iv). destruct (build_dim _ t) as [d|c]; [|reflexivity].
  replace (if is_variadic d then Some (index + k) else option_map _ iv)
    with (option_map (fun i => i + k) (if is_variadic d then Some index else iv)) by (destruct (is_variadic d); reflexivity).
  rewrite <- Nat.add_succ_l, IH. destruct (parse_tokens r (S index) _) as [[dl ivf]|c]; reflexivity.
Qed.

Definition tok_variadic (e : string) : bool :=
  match parse_token e with Ok (f, _, _) => f_var f | Err _ => false end.

(* once a variadic has been seen its index is kept, and no later token is variadic *)
Lemma parse_tokens_some toks : forall index i dl ivf,
  parse_tokens toks index (Some i) = Ok (dl, ivf) ->
  ivf = Some i /\ existsb tok_variadic toks = false /\ forallb (fun d => negb (is_variadic d)) dl = true.
Proof.
  induction toks as [|e r IH]; intros index i dl ivf H.
  - inversion H. auto.
  - apply parse_tokens_cons_ok in H as (t & d & dl' & T & B & E & ->).
    pose proof (build_dim_seen_ok _ _ B) as V. rewrite V in E.
    destruct (IH _ _ _ _ E) as (-> & Ht & Hd). cbn [existsb forallb].
    unfold tok_variadic. rewrite T. destruct t as [[f rest] ty].
    rewrite <- (build_dim_variadic _ _ _ B : _ = f_var f), V. auto.
Qed.

(* before that: index_variadic is where the first variadic stands, and there is no other *)
Lemma parse_tokens_none toks : forall index dl ivf,
  parse_tokens toks index None = Ok (dl, ivf) ->
  match ivf with
  | None => forallb (fun d => negb (is_variadic d)) dl = true
  | Some i => exists l1 dv l2, dl = (l1 ++ dv :: l2)%list /\ i = index + length l1 /\ is_variadic dv = true /\
                forallb (fun d => negb (is_variadic d)) (l1 ++ l2) = true
  end.
Proof.
  induction toks as [|e r IH]; intros index dl ivf H.
  - inversion H. reflexivity.
  - apply parse_tokens_cons_ok in H as (t & d & dl' & _ & _ & E & ->).
    destruct (is_variadic d) eqn:V.
    + apply parse_tokens_some in E as (-> & _ & Hd).
      exists [], d, dl'. rewrite Nat.add_0_r. auto.
    + apply IH in E. destruct ivf as [i|]; [|cbn; now rewrite V].
      destruct E as (l1 & dv & l2 & -> & -> & E).
      exists (d :: l1), dv, l2. cbn. rewrite V, Nat.add_succ_r. auto.
Qed.

(* the same tokens after a variadic has been seen: accepted iff they hold no second one *)
Lemma parse_tokens_seen toks : forall index i dl ivf,
  parse_tokens toks index None = Ok (dl, ivf) ->
  match ivf with
  | None => parse_tokens toks index (Some i) = Ok (dl, Some i)
  | Some _ => exists c, parse_tokens toks index (Some i) = Err c
  end.
Proof.
  induction toks as [|e r IH]; intros index i dl ivf H.
  - inversion H. reflexivity.
  - apply parse_tokens_cons_ok in H as (t & d & dl' & T & B & E & ->).
    cbn [parse_tokens has_iv] in *. rewrite T, build_dim_seen.
    rewrite (build_dim_variadic _ _ _ B) in E. destruct (f_var (fst (fst t))) eqn:V.
    + apply parse_tokens_some in E as (-> & _). eauto.
    + rewrite B, (build_dim_variadic _ _ _ B), V. apply IH with (i := i) in E.
      destruct ivf; [destruct E as [c ->]; eauto | now rewrite E].
Qed.
