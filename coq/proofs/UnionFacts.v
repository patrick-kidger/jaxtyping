(* UnionFacts.v -- the annotations, value and symbol table of the witness in props/C02.v that the greedy resolution of unions is NOT
   "accepted iff a consistent assignment exists". *)
From JT Require Import model.UnionWalk.

Definition AU (s : string) : annot :=
  match parse_dims s with Ok d => mkannot false None d false | Err _ => mkannot false None (mkdims [] None) true end.
Definition VU (sh : list Z) : value := mkvalue true true "float32" sh.
Definition st_n1 : symtab := [("n+1", EBin OAdd (EVar "n") (EInt 1))].
