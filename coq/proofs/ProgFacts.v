(* ProgFacts.v -- every program leaves the caller's bindings exactly as they were (C05). *)
From JT Require Import model.Prog proofs.CheckFacts.

Section Ind.
Variables (P : prog -> Prop) (Q : list prog -> Prop).
Hypotheses (Hc : forall u, P (PCheck u)) (Ho : P PObserve)
           (Hcall : forall sty b ps body x, Q body -> P (PCall sty b ps body x))
           (Hctx : forall body x, Q body -> P (PContext body x))
           (Htry : forall body, Q body -> P (PTry body))
           (Hnil : Q []) (Hcons : forall p r, P p -> Q r -> Q (p :: r)).
Fixpoint prog_ind2 (p : prog) : P p :=
  let go := fix go (l : list prog) : Q l := match l with [] => Hnil | p :: r => Hcons p r (prog_ind2 p) (go r) end in
  match p with
  | PCheck u => Hc u
  | PObserve => Ho
  | PCall sty b ps body x => Hcall sty b ps body x (go body)
  | PContext body x => Hctx body x (go body)
  | PTry body => Htry body (go body)
  end.
Definition prog_ind_both : (forall p, P p) /\ (forall l, Q l) :=
  conj prog_ind2 (list_ind Q Hnil (fun p r => Hcons p r (prog_ind2 p))).
End Ind.

Section S.
Variables (lbl : option string) (st : symtab).

(* unfolding equations: the local recursion inside `run` is `run_list` *)
Lemma run_context body x s :
  run lbl st (PContext body x) s =
  (let s0 := push_memo s [] in
   let '(s1, ev, sg) := run_list lbl st body s0 in
   (pop_memo s1, ev, match sg with Some e => Some e | None => exit_sig x end)).
Proof. reflexivity. Qed.

Lemma run_try body s :
  run lbl st (PTry body) s =
  match run_list lbl st body s with
  | (s1, ev, Some e) => (s1, (ev ++ [EvExc e])%list, None)
  | r => r
  end.
Proof. reflexivity. Qed.

Lemma run_call sty binds params body x s :
  run lbl st (PCall sty binds params body x) s =
  if negb binds then (s, [], Some OtherExc)
  else
    let s0 := push_memo s [] in
    let finish (r : stack * list pevent * sig) := let '(s1, ev, sg) := r in (pop_memo s1, ev, sg) in
    match sty with
    | SNone =>
        match x with
        | XGenerator => let '(s1, ev, sg) := run_list lbl st body (pop_memo s0) in (s1, ev, sg)
        | _ => finish (let '(s1, ev, sg) := run_list lbl st body s0 in
                       (s1, ev, match sg with Some e => Some e | None => exit_sig x end))
        end
    | SNew | SOld =>
        match walk lbl st params s0 with
        | (Acc, s1) =>
            match x with
            | XGenerator => run_list lbl st body (pop_memo s1)
            | _ => finish (let '(s2, ev, sg) := run_list lbl st body s1 in
                           (s2, ev, match sg with Some e => Some e | None => exit_sig x end))
            end
        | (Rej, s1) => (pop_memo s1, [], Some OtherExc)
        | (Raise e, s1) => (pop_memo s1, [], Some (match e with AnnotationErr => AnnotationErr | BaseExc => BaseExc | _ => OtherExc end))
        end
    end.
Proof. reflexivity. Qed.

(* "the same except, possibly, for the bindings of the current (top) context" *)
Definition below (s s' : stack) : Prop := length s' = length s /\ tl s' = tl s.

Lemma below_refl s : below s s. Proof. split; reflexivity. Qed.
Lemma below_trans a b c : below a b -> below b c -> below a c.
Proof. intros [H1 H2] [H3 H4]. split; congruence. Qed.

Lemma instancecheck_below flat a v s vd s' : instancecheck flat lbl st a v s = (vd, s') -> below s s'.
Proof.
  intros H. destruct (instancecheck_state lbl st flat a v s) as [m' [Hs _]]. rewrite H in Hs. cbn in Hs. subst s'.
  destruct s; split; reflexivity.
Qed.

Lemma walk_below : forall us s vd s', walk lbl st us s = (vd, s') -> below s s'.
Proof.
  induction us as [|[a v] us IH]; intros s vd s' H; cbn in H.
  - inversion H; apply below_refl.
  - destruct (instancecheck false lbl st a v s) as [vd1 s1] eqn:E.
    pose proof (instancecheck_below _ _ _ _ _ _ E) as B1.
    destruct vd1; try (inversion H; subst; exact B1).
    eapply below_trans; [exact B1 | eapply IH; eauto].
Qed.

(* the context pushed for a call is still on top after the parameters were walked in it and after anything that
   keeps to the current context: popping then gives back the caller's stack.  (With no parameters: a context block.) *)
Lemma pop_after_walk params s vd s1 : walk lbl st params (push_memo s []) = (vd, s1) -> forall s2, below s1 s2 -> pop_memo s2 = s.
Proof. intros Hw s2 B. exact (proj2 (below_trans _ _ _ (walk_below _ _ _ _ Hw) B)). Qed.

(* the three styles differ only in which parameters are walked inside the pushed context: none for
   jaxtyped(typechecker=None) *)
Lemma run_call_style sty binds params body x s :
  run lbl st (PCall sty binds params body x) s =
  run lbl st (PCall SNew binds (match sty with SNone => [] | _ => params end) body x) s.
Proof.
  destruct sty; try reflexivity. rewrite !run_call. destruct (negb binds); [reflexivity|].
  destruct x; try reflexivity. cbn. destruct (run_list lbl st body s) as [[s1 ev] sg]. reflexivity.
Qed.

(* a call or block that has returned (a generator call has only handed out its generator) *)
Definition block (p : prog) : Prop :=
  match p with
  | PCall _ _ _ _ XGenerator => False
  | PCall _ _ _ _ _ | PContext _ _ => True
  | _ => False
  end.

(* simultaneously for programs and program lists: nothing beneath the current context is touched, and a block
   puts back the current context as well.  A block pops what it pushed because its body, by induction, has left
   everything beneath the pushed context alone. *)
Lemma run_below :
  (forall p s s' ev sg, run lbl st p s = (s', ev, sg) -> below s s' /\ (block p -> s' = s)) /\
  (forall l s s' ev sg, run_list lbl st l s = (s', ev, sg) -> below s s').
Proof.
  apply prog_ind_both.
  - intros [a v] s s' ev sg H. cbn in H. destruct (instancecheck false lbl st a v s) as [vd s1] eqn:E.
    inversion H; subst. split; [eapply instancecheck_below; eauto | intros []].
  - intros s s' ev sg H. cbn in H. inversion H; subst. split; [apply below_refl | intros []].
  - intros sty b ps body x IH s s' ev sg H. rewrite run_call_style, run_call in H. cbv zeta in H.
    destruct b; cbn [negb] in H; [|inversion H; subst; split; [apply below_refl | reflexivity]].
    destruct (walk lbl st _ (push_memo s [])) as [vd s1] eqn:Ew. pose proof (pop_after_walk _ _ _ _ Ew) as Hpop.
    destruct vd as [| |e].
    2,3: inversion H; subst; rewrite (Hpop _ (below_refl _)); split; [apply below_refl | reflexivity].
    destruct x as [|base|].
    3:{ rewrite (Hpop _ (below_refl _)) in H. split; [eapply IH; eauto | intros []]. }
    all: destruct (run_list lbl st body s1) as [[s2 ev2] sg2] eqn:Er; inversion H; subst;
      rewrite (Hpop s2 (IH _ _ _ _ Er)); split; [apply below_refl | reflexivity].
  - intros body x IH s s' ev sg H. rewrite run_context in H. cbv zeta in H.
    destruct (run_list lbl st body (push_memo s [])) as [[s1 ev1] sg1] eqn:Er. inversion H; subst.
    rewrite (pop_after_walk [] s Acc _ eq_refl s1 (IH _ _ _ _ Er)). split; [apply below_refl | reflexivity].
  - intros body IH s s' ev sg H. rewrite run_try in H. destruct (run_list lbl st body s) as [[s1 ev1] sg1] eqn:Er.
    destruct sg1; inversion H; subst; (split; [eapply IH; eauto | intros []]).
  - intros s s' ev sg H. cbn in H. inversion H; apply below_refl.
  - intros p r IHp IHr s s' ev sg H. cbn [run_list] in H.
    destruct (run lbl st p s) as [[s1 ev1] sg1] eqn:E1. destruct (IHp _ _ _ _ E1) as [B1 _].
    destruct sg1; [inversion H; subst; exact B1|].
    destruct (run_list lbl st r s1) as [[s2 ev2] sg2] eqn:E2. inversion H; subst.
    eapply below_trans; [exact B1 | eapply IHr; eauto].
Qed.

End S.
