(* ThreadsFacts.v -- threads never see each other's bindings or transient check state (C06). *)
From JT Require Import model.Threads.
From Coq Require Import Lia.
Open Scope list_scope.
Open Scope nat_scope.

Lemma nth_set_nth_same {A} (l : list A) n x d : n < length l -> nth n (set_nth n x l) d = x.
Proof. revert n. induction l as [|y l IH]; intros n H; cbn in *; [lia|]. destruct n; cbn; [reflexivity | apply IH; lia]. Qed.

Lemma nth_set_nth_other {A} (l : list A) n m x d : n <> m -> nth m (set_nth n x l) d = nth m l d.
Proof. revert n m. induction l as [|y l IH]; intros n m H; cbn; [destruct n; reflexivity|]. destruct n, m; cbn; try congruence. apply IH. congruence. Qed.

Lemma length_set_nth {A} (l : list A) n x : length (set_nth n x l) = length l.
Proof. revert n. induction l as [|y l IH]; intros n; cbn; [destruct n; reflexivity|]. destruct n; cbn; [reflexivity | now rewrite IH]. Qed.

Lemma pstore_eta s : mkps (ps_stack s) (ps_path s) (ps_flat s) = s.
Proof. destruct s; reflexivity. Qed.

Definition dflt := mkps [] None false.

(* with all three cells thread-local a step of thread t reads and writes the private copy of t only *)
Lemma view_tl g t : view ThreadLocal ThreadLocal ThreadLocal g t = nth t (g_local g) dflt.
Proof. unfold view. cbn. apply pstore_eta. Qed.

Lemma write_back_tl g t s :
  write_back ThreadLocal ThreadLocal ThreadLocal g t s = mkgs (g_shared g) (set_nth t s (g_local g)).
Proof. unfold write_back. cbn. now rewrite !pstore_eta. Qed.

Fixpoint count (t : nat) (l : list nat) : nat := match l with [] => 0 | x :: r => (if Nat.eqb x t then 1 else 0) + count t r end.

Lemma run_solo_app st a : forall b s,
  run_solo st (a ++ b) s = let '(s1, o1) := run_solo st a s in let '(s2, o2) := run_solo st b s1 in (s2, o1 ++ o2).
Proof.
  induction a as [|x a IH]; intros b s; cbn [app run_solo].
  - destruct (run_solo st b s); reflexivity.
  - destruct (step_view st x s) as [s' ob]. rewrite IH. destruct (run_solo st a s') as [s1 o1]. destruct (run_solo st b s1) as [s2 o2]. reflexivity.
Qed.

(* thread t gets `count t sched` ticks; those past the end of its workload do nothing, which `firstn` absorbs.
   Only t's own slots need to exist. *)
Theorem run_sched_solo st t : forall sched progs g obs,
  t < length progs -> t < length obs -> t < length (g_local g) ->
  let '(g', obs') := run_sched ThreadLocal ThreadLocal ThreadLocal st sched progs g obs in
  let '(s_solo, o_solo) := run_solo st (firstn (count t sched) (nth t progs [])) (nth t (g_local g) dflt) in
  nth t (g_local g') dflt = s_solo /\ nth t obs' [] = nth t obs [] ++ o_solo /\ g_shared g' = g_shared g.
Proof.
  induction sched as [|u rest IH]; intros progs g obs Hp Ho Hg; cbn [run_sched count].
  - cbn. rewrite app_nil_r. auto.
  - destruct (nth u progs []) as [|o more] eqn:Eu.
    + (* thread u has nothing left (or u is not a thread) *)
      specialize (IH progs g obs Hp Ho Hg). destruct (Nat.eqb_spec u t) as [->|]; [|exact IH].
      rewrite Eu in *. now rewrite firstn_nil in *.
    + rewrite view_tl. destruct (step_view st o (nth u (g_local g) dflt)) as [s' ob] eqn:Es. rewrite write_back_tl.
      specialize (IH (set_nth u more progs) (mkgs (g_shared g) (set_nth u s' (g_local g))) (set_nth u (nth u obs [] ++ [ob]) obs)).
      cbn [g_local g_shared] in IH. rewrite !length_set_nth in IH. specialize (IH Hp Ho Hg).
      destruct (run_sched _ _ _ _ _ _ _ _) as [g' obs'].
      destruct (Nat.eqb_spec u t) as [->|Hne].
      * (* t itself is scheduled: the next step of its workload *)
        rewrite !nth_set_nth_same in IH by assumption. rewrite Eu. cbn [Nat.add firstn run_solo]. rewrite Es.
        destruct (run_solo st (firstn (count t rest) more) s') as [s2 o2]. now rewrite <- app_assoc in IH.
      * now rewrite !nth_set_nth_other in IH by exact Hne.
Qed.

(* the store and the checks of the two-thread schedules in props/C06.v that change a verdict if a cell is shared *)
Definition g2 := mkgs dflt [dflt; dflt].
Definition wrong_dtype : annot * value := (AC (Some ["float32"]) "a b c", mkvalue true true "int32" [2; 2]%Z).
Definition A_n := AC None "n".
Definition V3 := mkvalue true true "float32" [3]%Z.
Definition V4 := mkvalue true true "float32" [4]%Z.
