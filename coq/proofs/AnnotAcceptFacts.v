(* AnnotAcceptFacts.v -- when two built annotations accept exactly the same values with the same bindings (`same_meaning`), and
   sending one through the reducer again and again (`resend`): what props/C15.v (the nest law as accepted) and props/C20.v (what
   comes back from the reducer) are stated and proved with. *)
From JT Require Import model.Annot.

(* the whole outcome of a check -- verdict AND the bindings it leaves -- against the rebuilt annotation *)
Definition check_built (st : symtab) (b : built) (cls : nat) (v : value) (s : stack) : verdict * stack :=
  instancecheck false None st (built_annot b) (mkvalue (Nat.eqb cls (b_cls b)) (v_attrs v) (v_dtype v) (v_shape v)) s.

Lemma same_meaning b b' :
  b_dims b' = b_dims b -> b_dtypes b' = b_dtypes b -> b_any b' = b_any b -> (b_any b = false -> b_cls b' = b_cls b) ->
  (forall st cls v s, check_built st b' cls v s = check_built st b cls v s) /\
  (forall st x s, accepts_one st (MBuilt b') x s = accepts_one st (MBuilt b) x s).
Proof.
  intros Hd Ht Ha Hc.
  assert (G : forall st cls v s, check_built st b' cls v s = check_built st b cls v s).
  { intros st cls v s. unfold check_built, built_annot. rewrite Hd, Ht, Ha. destruct (b_any b).
    - reflexivity.
    - now rewrite (Hc eq_refl). }
  split; [exact G|]. intros st x s. destruct x as [cls v| |]; cbn [accepts_one]; [|reflexivity|reflexivity].
  exact (f_equal fst (G st cls v s)).
Qed.

(* sent again and again (a worker that receives an annotation and passes it on, a cache of pickles, copy of a copy) *)
Fixpoint resend (n : nat) (b : built) : mres :=
  match n with
  | O => MBuilt b
  | S k => match reduce_rebuild b with MBuilt b' => resend k b' | x => x end
  end.

(* non-vacuity: Shaped[Float32or64[A, "a"], "b"] sent three times still rejects float16 and accepts float32 of shape (2, 3) *)
Example resend_nonvacuous :
  match make_array (Some ["float32"; "float64"]) (TClass 1) "a" with
  | MBuilt b1 => match make_array None (TNested b1) "b" with
                 | MBuilt b => match resend 3 b with
                               | MBuilt b' => (show_verdict (accepts_one [] (MBuilt b') (VArr 1 (mkvalue true true "float32" [2; 3]%Z)) [empty_memo]),
                                               show_verdict (accepts_one [] (MBuilt b') (VArr 1 (mkvalue true true "float16" [2; 3]%Z)) [empty_memo]),
                                               show_verdict (accepts_one [] (MBuilt b') (VArr 2 (mkvalue true true "float32" [2; 3]%Z)) [empty_memo]))
                               | _ => ("", "", "")
                               end
                 | _ => ("", "", "")
                 end
  | _ => ("", "", "")
  end = ("acc", "rej", "rej").
Proof. vm_compute. reflexivity. Qed.
