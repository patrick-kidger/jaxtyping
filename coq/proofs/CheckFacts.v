(* CheckFacts.v -- the declarative meaning of the dim-string language (`dim_sat`, `use_sat`, `full_sat` under an assignment
   `env`) and the assignments consistent with a memo (`gamma`).  At every level of model/Check.v -- one axis, _check_dims,
   the variadic branch, _check_shape, isinstance, a walk over several uses -- an accepted check narrows gamma by exactly the
   meaning of what it checked, and a rejected one means that no consistent assignment has that meaning (C01, C02); a check
   that does not accept restores the stack (C04).  What an accepted check does when repeated is in TwoPassFacts.v. *)
From JT Require Import model.Check proofs.BroadcastFacts.
From JT Require Export proofs.BaseFacts.
From Coq Require Import Lia Permutation.

(* an assignment of sizes to axis names and of shapes to `*names` *)
Record env := mkenv { rho : string -> Z; rhov : string -> list Z }.

Definition agrees (sm : alist Z) (r : string -> Z) : Prop :=
  forall k v, aget sm k = Some v -> r k = v.

Definition agreesv (vm : alist (bool * list Z)) (rv : string -> list Z) : Prop :=
  forall n bc s, aget vm n = Some (bc, s) -> if bc then ble s (rv n) else rv n = s.

(* gamma: the assignments consistent with a memo.  `(False, S)` pins the shape,
   `(True, B)` only says that B broadcasts to the (not yet pinned) shape *)
Definition gamma (m : memo) (e : env) : Prop := agrees (single m) (rho e) /\ agreesv (variadic m) (rhov e).

Lemma agrees_aset sm k z r : aget sm k = None -> (agrees (aset sm k z) r <-> agrees sm r /\ r k = z).
Proof.
  intros Hn. unfold agrees. split.
  - intros H. split; [|apply H, aget_aset_same].
    intros k' v Hk. apply H. rewrite aget_aset. destruct (String.eqb_spec k' k); congruence.
  - intros [H Hk] k' v. rewrite aget_aset. destruct (String.eqb_spec k' k) as [->|]; [congruence | apply H].
Qed.

(* C02_gamma_never_empty: the assignment that reads the memo, and is 0 / () elsewhere *)
Definition rho_of (sm : alist Z) (k : string) : Z := match aget sm k with Some v => v | None => 0%Z end.
Definition rhov_of (vm : alist (bool * list Z)) (n : string) : list Z :=
  match aget vm n with Some (_, s) => s | None => [] end.

Theorem gamma_nonempty (m : memo) : gamma m (mkenv (rho_of (single m)) (rhov_of (variadic m))).
Proof.
  split; cbn.
  - intros k v H. unfold rho_of. now rewrite H.
  - intros n bc s H. unfold rhov_of. rewrite H. destruct bc; [apply ble_refl | reflexivity].
Qed.

Lemma ex_gamma_fresh args (P : env -> Prop) : (exists e, gamma (mkmemo [] [] args) e /\ P e) <-> exists e, P e.
Proof.
  split; intros [e He]; exists e; [tauto | split; [|exact He]].
  split; cbn; intros ? ?; discriminate.
Qed.

(* stage 2 of model/SymExpr.v with the axis names read from an assignment (so never unbound) instead of the memo *)
Fixpoint stage2r (r : string -> Z) (args : alist Z) (e : expr) : evres :=
  match e with
  | EInt z => EVal z
  | EVar n => EVal (r n)
  | EArg n => match aget args n with Some z => EVal z | None => ENameErr end
  | ERaise base => if base then EBaseExc else EExc
  | ENeg a => match stage2r r args a with EVal z => EVal (- z) | x => x end
  | EBin op a b =>
      match stage2r r args a with
      | EVal x => match stage2r r args b with EVal y => apply_op op x y | x => x end
      | x => x
      end
  | EMin a b =>
      match stage2r r args a with
      | EVal x => match stage2r r args b with EVal y => EVal (Z.min x y) | x => x end
      | x => x
      end
  | EMax a b =>
      match stage2r r args a with
      | EVal x => match stage2r r args b with EVal y => EVal (Z.max x y) | x => x end
      | x => x
      end
  end.

Definition eval_symr (r : string -> Z) (args : alist Z) (e : expr) : evres :=
  match stage1 args e with Some x => x | None => stage2r r args e end.

Lemma stage2_stable sm r args e v :
  agrees sm r -> stage2 sm args e = EVal v -> stage2r r args e = EVal v.
Proof.
  intros Hag. revert v. induction e as [z|n|n|b|a IHa|op a IHa b IHb|a IHa b IHb|a IHa b IHb]; intros v; cbn; auto.
  (* the three binary forms *)
  3-5: destruct (stage2 sm args a); destruct (stage2 sm args b); try discriminate;
       now rewrite (IHa _ eq_refl), (IHb _ eq_refl).
  - destruct (aget sm n) eqn:E; [|discriminate]. now rewrite (Hag _ _ E).
  - destruct (stage2 sm args a); try discriminate. now rewrite (IHa _ eq_refl).
Qed.

Lemma eval_sym_stable sm r args e v :
  agrees sm r -> eval_sym sm args e = EVal v -> eval_symr r args e = EVal v.
Proof.
  unfold eval_sym, eval_symr. intros Hag. destruct (stage1 args e); [auto|]. now apply stage2_stable.
Qed.

Definition dim_sat (lbl : option string) (st : symtab) (args : alist Z) (r : string -> Z) (d : dim) (z : Z) : Prop :=
  match d with
  | DAnon => True
  | DFixed n bc => (bc = true /\ z = 1%Z) \/ n = z
  | DNamed n bc tp => (bc = true /\ z = 1%Z) \/ exists k, dkey lbl n tp = Some k /\ r k = z
  | DSym src bc => (bc = true /\ z = 1%Z) \/ exists e, aget st src = Some e /\ eval_symr r args e = EVal z
  | DVarAnon | DVarNamed _ _ _ => False
  end.

Lemma bc1_dec (bc : bool) (z : Z) : {bc = true /\ z = 1%Z} + {bc && (z =? 1)%Z = false /\ ~ (bc = true /\ z = 1%Z)}.
Proof.
  destruct bc; cbn; [|right; split; [reflexivity | intros [? _]; discriminate]].
  destruct (Z.eqb_spec z 1); [left; auto | right; split; [reflexivity | tauto]].
Qed.

Section Dims.
Variables (lbl : option string) (st : symtab) (args : alist Z).

(* the ways an axis is accepted: without consulting the bindings (`_`, `#` on a size-1 axis, an equal literal); a symbolic
   axis that evaluates to the size; a name bound to the size, before this step or by it *)
Lemma dim_step_cont_cases d z sm sm1 :
  dim_step lbl st args d z sm = SCont sm1 ->
  (sm1 = sm /\ (forall smx, dim_step lbl st args d z smx = SCont smx) /\ forall r, dim_sat lbl st args r d z) \/
  (exists src bc e, d = DSym src bc /\ aget st src = Some e /\ eval_sym sm args e = EVal z /\ sm1 = sm) \/
  (exists n bc tp k, d = DNamed n bc tp /\ dkey lbl n tp = Some k /\ aget sm1 k = Some z /\
     (sm1 = sm \/ ~ (bc = true /\ z = 1%Z) /\ aget sm k = None /\ sm1 = aset sm k z)).
Proof.
  intros H. destruct d as [| |n bc tp|n bc tp|n bc|src bc]; cbn in H; try discriminate.
  1: left; inversion H; cbn; auto.
  all: destruct (bc1_dec bc z) as [[-> ->]|[Hb Hnb]]; [left; inversion H; cbn; auto | rewrite Hb in H].
  - right; right. destruct (dkey lbl n tp) as [k|] eqn:Ek; [|discriminate]. exists n, bc, tp, k.
    destruct (aget sm k) as [v|] eqn:Ev.
    + destruct (Z.eqb_spec v z) as [->|]; inversion H; subst. auto.
    + inversion H. rewrite aget_aset_same. auto 10.
  - left. destruct (Z.eqb_spec n z) as [->|]; inversion H. cbn. rewrite Hb, Z.eqb_refl. auto.
  - right; left. destruct (aget st src) as [e|] eqn:Ee; [|discriminate].
    destruct (eval_sym sm args e) as [v| | |] eqn:Ev; try discriminate.
    destruct (Z.eqb_spec v z) as [->|]; inversion H; subst. exists src, bc, e. auto.
Qed.

Lemma dim_step_cont d z sm sm1 :
  dim_step lbl st args d z sm = SCont sm1 ->
  forall r, agrees sm1 r <-> agrees sm r /\ dim_sat lbl st args r d z.
Proof.
  intros H r.
  destruct (dim_step_cont_cases _ _ _ _ H)
    as [(-> & _ & Hs) | [(src & bc & e & -> & He & Hv & ->) | (n & bc & tp & k & -> & Hk & Hg & [-> | (Hnb & Hn & ->)])]]; cbn.
  - specialize (Hs r). tauto.
  - rewrite He, ex_Some_eq. split; [|tauto]. intros Ha. pose proof (eval_sym_stable _ _ _ _ _ Ha Hv). tauto.
  - rewrite Hk, ex_Some_eq. split; [|tauto]. intros Ha. pose proof (Ha _ _ Hg). tauto.
  - rewrite Hk, ex_Some_eq, agrees_aset by assumption. tauto.
Qed.

Lemma dim_step_fail d z sm :
  dim_step lbl st args d z sm = SFail ->
  forall r, agrees sm r -> ~ dim_sat lbl st args r d z.
Proof.
  intros H r Ha Hs. destruct d as [| |n bc tp|n bc tp|n bc|src bc]; cbn in H, Hs; try discriminate.
  all: destruct (bc1_dec bc z) as [[-> ->]|[Hb Hnb]]; [discriminate | rewrite Hb in H; destruct Hs as [Hc|Hs]; [tauto|]].
  - destruct Hs as (k & Hk & Hr). rewrite Hk in H. destruct (aget sm k) as [v|] eqn:Ev; [|discriminate].
    rewrite <- (Ha _ _ Ev), Hr, Z.eqb_refl in H. discriminate.
  - rewrite Hs, Z.eqb_refl in H. discriminate.
  - destruct Hs as (e & He & Hr). rewrite He in H. destruct (eval_sym sm args e) as [v| | |] eqn:Ev; try discriminate.
    rewrite (eval_sym_stable _ _ _ _ _ Ha Ev) in Hr. inversion Hr; subst. rewrite Z.eqb_refl in H. discriminate.
Qed.

(* C01_axes_accept, C01_axes_reject.  _check_dims asserts that the lengths agree; check_dims does not, and like zip stops at
   the end of the shorter list, so acceptance means something only under that hypothesis *)
Theorem check_dims_ok : forall dl sh sm sm',
  length dl = length sh ->
  check_dims lbl st args dl sh sm = (COk, sm') ->
  forall r, agrees sm' r <-> agrees sm r /\ Forall2 (dim_sat lbl st args r) dl sh.
Proof.
  induction dl as [|d dl IH]; intros [|z sh] sm sm' Hlen H r; try discriminate.
  - inversion H; subst. split; [auto | tauto].
  - injection Hlen as Hlen. cbn [check_dims] in H.
    destruct (dim_step lbl st args d z sm) as [sm1| |e] eqn:Es; try discriminate.
    rewrite (IH _ _ _ Hlen H r), (dim_step_cont _ _ _ _ Es r). split.
    + intros [[Ha Hd] Hf]. auto.
    + intros [Ha Hf]. inversion Hf; subst. tauto.
Qed.

Theorem check_dims_fail : forall dl sh sm sm',
  check_dims lbl st args dl sh sm = (CFail, sm') ->
  forall r, agrees sm r -> ~ Forall2 (dim_sat lbl st args r) dl sh.
Proof.
  induction dl as [|d dl IH]; intros sh sm sm' H r Ha Hf; inversion Hf; subst; [discriminate|].
  cbn [check_dims] in H. destruct (dim_step lbl st args d y sm) as [sm1| |e] eqn:Es; try discriminate.
  - eapply IH; eauto. apply (dim_step_cont _ _ _ _ Es r). auto.
  - eapply dim_step_fail; eauto.
Qed.

End Dims.

(* the information order on the single-axis memo: bindings are only ever added *)
Definition extends (a b : alist Z) : Prop := forall k v, aget a k = Some v -> aget b k = Some v.

Definition var_sat (rv : string -> list Z) (name : string) (bc : bool) (mid : list Z) : Prop :=
  if bc then ble mid (rv name) else rv name = mid.

(* the information order on the entries of the variadic memo: `(True, B)` says that B broadcasts to the shape the name
   stands for, `(False, S)` that the shape is S; x is below y when y says at least as much.  A use `*name` / `*#name` with
   middle axes mid is itself such an entry, and the check stores the least upper bound of it and the entry found *)
Definition ele (x y : bool * list Z) : Prop :=
  if fst x then ble (snd x) (snd y) else fst y = false /\ snd y = snd x.

Lemma ele_refl x : ele x x.
Proof. unfold ele. destruct (fst x); [apply ble_refl | auto]. Qed.

Lemma ele_trans x y z : ele x y -> ele y z -> ele x z.
Proof.
  unfold ele. destruct (fst x), (fst y); try (intros [? _]; discriminate).
  - apply ble_trans.
  - intros H [_ ->]. exact H.
  - intros [_ ->] H. exact H.
Qed.

Lemma ele_ble x y : ele x y -> ble (snd x) (snd y).
Proof. unfold ele. destruct (fst x); [auto | intros [_ ->]; apply ble_refl]. Qed.

Lemma ele_pin x t : ele x (false, t) <-> if fst x then ble (snd x) t else t = snd x.
Proof. unfold ele. destruct (fst x); cbn; [reflexivity | split; [intros [_ H] | intros H]; auto]. Qed.

Lemma agreesv_ele vm rv : agreesv vm rv <-> forall n x, aget vm n = Some x -> ele x (false, rv n).
Proof.
  split.
  - intros H n [bc s] Hn. apply ele_pin. exact (H n bc s Hn).
  - intros H n bc s Hn. exact (proj1 (ele_pin _ _) (H n _ Hn)).
Qed.

Lemma var_sat_ele rv name bc mid : var_sat rv name bc mid <-> ele (bc, mid) (false, rv name).
Proof. symmetry. apply ele_pin. Qed.

(* the branch of _check_shape on `prev_broadcastable` and `broadcastable`, accepted: the entry afterwards is the least upper
   bound of the use and the entry found *)
Lemma check_variadic_lub name bc mid vm vm1 :
  check_variadic name bc mid vm = (COk, vm1) ->
  exists x1, vm1 = aset vm name x1 /\
    forall y, ele x1 y <-> ele (bc, mid) y /\ match aget vm name with Some x => ele x y | None => True end.
Proof.
  unfold check_variadic. destruct (aget vm name) as [[[] ps]|] eqn:Eg; intros H.
  - (* previous use(s) broadcastable: the stored shape is only a lower bound *)
    destruct (bcast mid ps) as [b|] eqn:Eb; [|discriminate]. destruct bc; cbn [negb andb] in H.
    + inversion H. exists (true, b). split; [reflexivity|]. intros y. apply (bcast_lub_some _ _ _ _ Eb).
    + destruct (zlist_eqb_spec b mid) as [->|]; [|discriminate].
      inversion H. exists (false, mid). split; [reflexivity|]. intros y. unfold ele; cbn.
      split; [intros [? ->]|tauto]. split; [auto | apply (bcast_upper _ _ _ Eb)].
  - (* previous use pinned the shape: nothing changes, provided this use is below it *)
    assert (Hu : ele (bc, mid) (false, ps) /\ vm1 = vm).
    { destruct bc.
      - destruct (bcast mid ps) as [b|] eqn:Eb; [|discriminate].
        destruct (zlist_eqb_spec b ps) as [->|]; inversion H. auto.
      - destruct (zlist_eqb_spec mid ps) as [->|]; inversion H. split; [apply ele_refl | reflexivity]. }
    destruct Hu as [Hu ->]. exists (false, ps). split; [now rewrite aset_same|]. intros y.
    split; [intros Hy | tauto]. split; [eapply ele_trans; eauto | exact Hy].
  - inversion H. exists (bc, mid). split; [reflexivity | tauto].
Qed.

Lemma check_variadic_no_ub name bc mid vm vm1 :
  check_variadic name bc mid vm = (CFail, vm1) ->
  exists x, aget vm name = Some x /\ forall y, ele (bc, mid) y -> ele x y -> False.
Proof.
  unfold check_variadic. destruct (aget vm name) as [[pbc ps]|]; [|discriminate].
  intros H. eexists. split; [reflexivity|]. intros [yb ys] Hu Hp. pose proof (ele_ble _ _ Hu) as Hm.
  unfold ele in Hu, Hp. cbn in Hu, Hp, Hm. destruct pbc.
  - destruct (bcast mid ps) as [b|] eqn:Eb; [|eapply bcast_none_no_ub; eauto].
    destruct bc; [discriminate|]. destruct Hu as [_ ->].
    (* the shape is mid and ps broadcasts to it: bcast ps mid, which is bcast mid ps, is mid *)
    unfold ble in Hp. rewrite bcast_comm, Eb in Hp. injection Hp as ->. rewrite zlist_eqb_refl in H. discriminate.
  - destruct Hp as [_ ->]. destruct bc.
    + unfold ble in Hu. rewrite Hu, zlist_eqb_refl in H. discriminate.
    + destruct Hu as [_ ->]. rewrite zlist_eqb_refl in H. discriminate.
Qed.

Lemma check_variadic_noop name bc mid vm x :
  aget vm name = Some x -> ele (bc, mid) x -> check_variadic name bc mid vm = (COk, vm).
Proof.
  destruct x as [pbc ps]. unfold check_variadic, ele. cbn. intros Hg Hu. rewrite Hg. destruct bc.
  - unfold ble in Hu. rewrite Hu, zlist_eqb_refl. destruct pbc; [now rewrite (aset_same _ _ _ Hg) | reflexivity].
  - destruct Hu as [-> ->]. now rewrite zlist_eqb_refl.
Qed.

Theorem check_variadic_ok name bc mid vm vm' :
  check_variadic name bc mid vm = (COk, vm') ->
  forall rv, agreesv vm' rv <-> agreesv vm rv /\ var_sat rv name bc mid.
Proof.
  intros H rv. destruct (check_variadic_lub _ _ _ _ _ H) as [x1 [-> L]]. rewrite !agreesv_ele, var_sat_ele. split.
  - intros Ha. destruct (proj1 (L _) (Ha name x1 (aget_aset_same _ _ _))) as [Hu Hp]. split; [|exact Hu].
    intros n x Hn. destruct (String.eqb_spec n name) as [->|Hne]; [now rewrite Hn in Hp|].
    apply Ha. rewrite aget_aset. now destruct (String.eqb_spec n name).
  - intros [Ha Hu] n x. rewrite aget_aset. destruct (String.eqb_spec n name) as [->|]; [|apply Ha].
    intros E; inversion E; subst x. apply L. split; [exact Hu|]. destruct (aget vm name) eqn:Eg; [now apply Ha | exact I].
Qed.

Theorem check_variadic_fail name bc mid vm vm' :
  check_variadic name bc mid vm = (CFail, vm') ->
  forall rv, agreesv vm rv -> ~ var_sat rv name bc mid.
Proof.
  intros H rv Ha Hs. destruct (check_variadic_no_ub _ _ _ _ _ H) as [x [Hg N]].
  apply (N (false, rv name)); [now apply var_sat_ele | exact (proj1 (agreesv_ele _ _) Ha _ _ Hg)].
Qed.

Open Scope list_scope.
Definition var_dim_sat (lbl : option string) (rv : string -> list Z) (od : option dim) (mid : list Z) : Prop :=
  match od with
  | Some DVarAnon => True
  | Some (DVarNamed n bc tp) => exists k, dkey lbl n tp = Some k /\ var_sat rv k bc mid
  | _ => False
  end.

Definition use_sat (lbl : option string) (st : symtab) (args : alist Z) (e : env) (d : dims) (sh : list Z) : Prop :=
  match ivar d with
  | None => Forall2 (dim_sat lbl st args (rho e)) (ds d) sh
  | Some i =>
      exists pre mid suf,
        sh = pre ++ mid ++ suf /\ length pre = i /\ length suf = (length (ds d) - i - 1)%nat /\
        Forall2 (dim_sat lbl st args (rho e)) (firstn i (ds d)) pre /\
        Forall2 (dim_sat lbl st args (rho e)) (skipn (S i) (ds d)) suf /\
        var_dim_sat lbl (rhov e) (nth_error (ds d) i) mid
  end.

Definition wf_dims (d : dims) : Prop := forall i, ivar d = Some i -> (i < length (ds d))%nat.

(* with a variadic axis at index i, the only candidates for prefix, middle and suffix are the three slices that
   _check_shape takes *)
Lemma use_sat_slices lbl st args e d sh i :
  ivar d = Some i ->
  let k := (length (ds d) - i - 1)%nat in
  use_sat lbl st args e d sh <->
  (i + k <= length sh)%nat /\
  Forall2 (dim_sat lbl st args (rho e)) (firstn i (ds d)) (firstn i sh) /\
  Forall2 (dim_sat lbl st args (rho e)) (skipn (S i) (ds d)) (skipn (length sh - k) sh) /\
  var_dim_sat lbl (rhov e) (nth_error (ds d) i) (firstn (length sh - k - i) (skipn i sh)).
Proof.
  intros Ei k. unfold use_sat. rewrite Ei. fold k. split.
  - intros (pre & mid & suf & Hsh & Hp & Hs & H).
    assert (Hr : (i + k <= length sh)%nat) by (rewrite Hsh, !app_length; lia).
    destruct (split3_unique _ _ _ _ _ _ Hsh Hp Hs) as (-> & -> & ->). auto.
  - intros (Hr & H). destruct (slices_partition sh i k Hr) as (Hsh & Hp & _ & Hs). eauto 8.
Qed.

(* the variadic axis found at index_variadic, checked against the middle slice *)
Definition check_vdim (lbl : option string) (od : option dim) (mid : list Z) (vm : alist (bool * list Z))
  : cres * alist (bool * list Z) :=
  match od with
  | Some DVarAnon => (COk, vm)
  | Some (DVarNamed n bc tp) =>
      match dkey lbl n tp with Some k => check_variadic k bc mid vm | None => (CRaise AnnotationErr, vm) end
  | _ => (CRaise OtherExc, vm)
  end.

Lemma check_vdim_ok lbl od mid vm vm' :
  check_vdim lbl od mid vm = (COk, vm') ->
  forall rv, agreesv vm' rv <-> agreesv vm rv /\ var_dim_sat lbl rv od mid.
Proof.
  destruct od as [[| |? ? ?|n bc tp|? ?|? ?]|]; cbn; try discriminate.
  - intros H rv; inversion H; tauto.
  - destruct (dkey lbl n tp) as [k|]; [|discriminate]. intros H rv. rewrite ex_Some_eq. now apply check_variadic_ok.
Qed.

Lemma check_vdim_fail lbl od mid vm vm' :
  check_vdim lbl od mid vm = (CFail, vm') ->
  forall rv, agreesv vm rv -> ~ var_dim_sat lbl rv od mid.
Proof.
  destruct od as [[| |? ? ?|n bc tp|? ?|? ?]|]; cbn; try discriminate.
  destruct (dkey lbl n tp) as [k|]; [|discriminate]. intros H rv. rewrite ex_Some_eq. now apply (check_variadic_fail _ _ _ _ _ H).
Qed.

Section Shape.
Variables (lbl : option string) (st : symtab).

(* _check_shape with a variadic axis, as three checks in a row.  Python needs `if j == 0: j = None` because `dims[-0:]` is
   everything; in the model the suffix of no axes is the empty list either way *)
Lemma check_shape_var d sh m i :
  ivar d = Some i ->
  let k := (length (ds d) - i - 1)%nat in
  check_shape lbl st d sh m =
  if (length sh <? length (ds d) - 1)%nat then (CFail, m)
  else
    let '(r1, sm1) := check_dims lbl st (margs m) (firstn i (ds d)) (firstn i sh) (single m) in
    match r1 with
    | COk =>
        let '(r2, sm2) := check_dims lbl st (margs m) (skipn (S i) (ds d)) (skipn (length sh - k) sh) sm1 in
        match r2 with
        | COk =>
            let '(r3, vm) :=
              check_vdim lbl (nth_error (ds d) i) (firstn (length sh - k - i) (skipn i sh)) (variadic m) in
            (r3, mkmemo sm2 vm (margs m))
        | _ => (r2, mkmemo sm2 (variadic m) (margs m))
        end
    | _ => (r1, mkmemo sm1 (variadic m) (margs m))
    end.
Proof.
  intros Ei k. unfold check_shape. rewrite Ei. fold k.
  destruct (length sh <? length (ds d) - 1)%nat; [reflexivity|].
  destruct (check_dims lbl st (margs m) (firstn i (ds d)) (firstn i sh) (single m)) as [[] sm1]; try reflexivity.
  replace (if (k =? 0)%nat then (COk, sm1) else _)
    with (check_dims lbl st (margs m) (skipn (S i) (ds d)) (skipn (length sh - k) sh) sm1).
  2: { destruct (Nat.eqb_spec k 0); [now rewrite skipn_all2 by lia | now replace (length (ds d) - k)%nat with (S i) by lia]. }
  destruct (check_dims lbl st (margs m) (skipn (S i) (ds d)) (skipn (length sh - k) sh) sm1) as [[] sm2]; try reflexivity.
  unfold check_vdim. destruct (nth_error (ds d) i) as [[| |? ? ?|n bc tp|? ?|? ?]|]; try reflexivity.
  destruct (dkey lbl n tp); reflexivity.
Qed.

Theorem check_shape_ok d sh m m' :
  check_shape lbl st d sh m = (COk, m') ->
  margs m' = margs m /\
  forall e, gamma m' e <-> gamma m e /\ use_sat lbl st (margs m) e d sh.
Proof.
  intros H. unfold gamma. destruct (ivar d) as [i|] eqn:Ei.
  - rewrite (check_shape_var _ _ _ i Ei) in H.
    destruct (Nat.ltb_spec (length sh) (length (ds d) - 1)) as [|Hr]; [discriminate|].
    destruct (check_dims _ _ _ (firstn _ _) _ _) as [[] sm1] eqn:E1; try discriminate.
    destruct (check_dims _ _ _ (skipn _ _) _ _) as [[] sm2] eqn:E2; try discriminate.
    destruct (check_vdim _ _ _ _) as [r3 vm] eqn:E3. inversion H; subst r3 m'. split; [reflexivity|]. intros e. cbn.
    (* index_variadic points into the dims: otherwise the last of the three checks raises *)
    assert (i < length (ds d))%nat by (apply nth_error_Some; intros En; now rewrite En in E3).
    rewrite (use_sat_slices _ _ _ _ _ _ _ Ei), (check_vdim_ok _ _ _ _ _ E3).
    rewrite (fun Hl => check_dims_ok _ _ _ _ _ _ _ Hl E2) by (rewrite !skipn_length; lia).
    rewrite (fun Hl => check_dims_ok _ _ _ _ _ _ _ Hl E1) by (rewrite !firstn_length; lia).
    assert (i + (length (ds d) - i - 1) <= length sh)%nat by lia. tauto.
  - unfold check_shape, use_sat in *. rewrite Ei in *.
    destruct (Nat.eqb_spec (length sh) (length (ds d))) as [Hl|]; [|discriminate].
    destruct (check_dims _ _ _ _ _ _) as [r sm] eqn:E1. inversion H; subst r m'. split; [reflexivity|]. intros e. cbn.
    rewrite (check_dims_ok _ _ _ _ _ _ _ (eq_sym Hl) E1). tauto.
Qed.

Theorem check_shape_fail d sh m m' :
  check_shape lbl st d sh m = (CFail, m') ->
  forall e, gamma m e -> ~ use_sat lbl st (margs m) e d sh.
Proof.
  intros H e [Hg Hgv] Hs. destruct (ivar d) as [i|] eqn:Ei.
  - rewrite (check_shape_var _ _ _ i Ei) in H.
    apply (use_sat_slices _ _ _ _ _ _ _ Ei) in Hs as (Hr & Ha & Hb & Hc).
    destruct (Nat.ltb_spec (length sh) (length (ds d) - 1)); [lia|].
    destruct (check_dims _ _ _ (firstn _ _) _ _) as [[] sm1] eqn:E1; try discriminate.
    2: exact (check_dims_fail _ _ _ _ _ _ _ E1 _ Hg Ha).
    assert (Hg1 : agrees sm1 (rho e)) by (eapply check_dims_ok; [exact (Forall2_len _ _ _ Ha) | exact E1 | auto]).
    destruct (check_dims _ _ _ (skipn _ _) _ _) as [[] sm2] eqn:E2; try discriminate.
    2: exact (check_dims_fail _ _ _ _ _ _ _ E2 _ Hg1 Hb).
    destruct (check_vdim _ _ _ _) as [r3 vm] eqn:E3. inversion H; subst r3.
    exact (check_vdim_fail _ _ _ _ _ E3 _ Hgv Hc).
  - unfold check_shape, use_sat in *. rewrite Ei in *.
    destruct (Nat.eqb_spec (length sh) (length (ds d))); [|apply Forall2_len in Hs; congruence].
    destruct (check_dims _ _ _ _ _ _) as [r sm] eqn:E1. inversion H; subst r.
    exact (check_dims_fail _ _ _ _ _ _ _ E1 _ Hg Hs).
Qed.

End Shape.

Definition val_ok (a : annot) (v : value) : bool :=
  (if a_any a then v_attrs v else v_inst v) && dtype_ok a (v_dtype v).

(* what the documentation says one use means under an assignment *)
Definition full_sat (lbl : option string) (st : symtab) (args : alist Z) (e : env) (u : annot * value) : Prop :=
  val_ok (fst u) (snd u) = true /\ use_sat lbl st args e (a_dims (fst u)) (v_shape (snd u)).

(* not made transparent (make_transparent sets _skip_instancecheck, and every value then passes: C12), and dims as the parser
   builds them *)
Definition wf_annot (a : annot) : Prop := a_skip a = false /\ wf_dims (a_dims a).

Lemma set_get_memo s : set_memo s (get_memo s) = s.
Proof. destruct s; reflexivity. Qed.

Section Instance.
Variables (lbl : option string) (st : symtab).

(* with _skip_instancecheck, or while a PyTree is being flattened, the shape is not looked at *)
Lemma instancecheck_shallow flat a v s :
  a_skip a || flat = true -> snd (instancecheck flat lbl st a v s) = s.
Proof.
  unfold instancecheck. destruct (a_skip a); [reflexivity|]. cbn. intros ->.
  destruct (negb (if a_any a then v_attrs v else v_inst v)); reflexivity.
Qed.

(* otherwise: array type and dtype, then the shape against the bindings of the current context; what the shape check
   bound is kept only if it accepted *)
Lemma instancecheck_deep a v s :
  a_skip a = false ->
  instancecheck false lbl st a v s =
  if val_ok a v then
    let '(r, m') := check_shape lbl st (a_dims a) (v_shape v) (get_memo s) in
    match r with COk => (Acc, set_memo s m') | CFail => (Rej, s) | CRaise e => (Raise e, s) end
  else (Rej, s).
Proof.
  intros Hs. unfold instancecheck, val_ok. rewrite Hs, set_get_memo.
  destruct (if a_any a then v_attrs v else v_inst v); [|reflexivity]. destruct (dtype_ok a (v_dtype v)); reflexivity.
Qed.

Lemma instancecheck_state flat a v s :
  exists m', snd (instancecheck flat lbl st a v s) = set_memo s m' /\
             (fst (instancecheck flat lbl st a v s) <> Acc -> m' = get_memo s).
Proof.
  destruct (a_skip a || flat) eqn:E.
  - exists (get_memo s). now rewrite instancecheck_shallow, set_get_memo.
  - apply orb_false_elim in E as [Hs ->]. rewrite (instancecheck_deep _ _ _ Hs).
    destruct (val_ok a v); [|exists (get_memo s); now rewrite set_get_memo].
    destruct (check_shape lbl st (a_dims a) (v_shape v) (get_memo s)) as [[] m'].
    2,3: exists (get_memo s); now rewrite set_get_memo.
    exists m'. split; [reflexivity | intros Hn; now destruct Hn].
Qed.

Lemma instancecheck_verdict flat a v s :
  fst (instancecheck flat lbl st a v s) = fst (instancecheck flat lbl st a v [get_memo s]).
Proof.
  unfold instancecheck. cbn [get_memo].
  destruct (a_skip a), (negb (if a_any a then v_attrs v else v_inst v)), flat, (negb (dtype_ok a (v_dtype v))); try reflexivity.
  destruct (check_shape _ _ _ _ _) as [[] m']; reflexivity.
Qed.

Theorem instancecheck_acc a v m s s' :
  a_skip a = false ->
  instancecheck false lbl st a v (m :: s) = (Acc, s') ->
  exists m', s' = m' :: s /\ margs m' = margs m /\
             forall e, gamma m' e <-> gamma m e /\ full_sat lbl st (margs m) e (a, v).
Proof.
  intros Hskip H. rewrite (instancecheck_deep _ _ _ Hskip) in H. unfold full_sat. cbn [fst snd get_memo set_memo] in *.
  destruct (val_ok a v); [|discriminate].
  destruct (check_shape lbl st (a_dims a) (v_shape v) m) as [[] m'] eqn:E; try discriminate.
  inversion H; subst s'. destruct (check_shape_ok lbl st _ _ _ _ E) as [Ha Hg].
  exists m'. split; [reflexivity|]. split; [assumption|]. intros e. rewrite (Hg e). tauto.
Qed.

Theorem instancecheck_rej a v m s s' :
  a_skip a = false ->
  instancecheck false lbl st a v (m :: s) = (Rej, s') ->
  s' = m :: s /\ forall e, gamma m e -> ~ full_sat lbl st (margs m) e (a, v).
Proof.
  intros Hskip H. rewrite (instancecheck_deep _ _ _ Hskip) in H. unfold full_sat. cbn [fst snd get_memo set_memo] in *.
  destruct (val_ok a v).
  - destruct (check_shape lbl st (a_dims a) (v_shape v) m) as [[] m'] eqn:E; try discriminate.
    inversion H. split; [reflexivity|]. intros e Hg [_ Hs]. eapply check_shape_fail; eauto.
  - inversion H. split; [reflexivity|]. intros e _ [Hc _]. discriminate.
Qed.

(* C04: a check that returns False, or raises (any class), leaves the whole stack as it was *)
Theorem instancecheck_not_acc_restores flat a v s vd s' :
  instancecheck flat lbl st a v s = (vd, s') -> vd <> Acc -> s' = s.
Proof.
  intros H Hv. destruct (instancecheck_state flat a v s) as [m' [Hs Hm]]. rewrite H in Hs, Hm. cbn in Hs, Hm.
  rewrite Hs, (Hm Hv). apply set_get_memo.
Qed.

(* C04_outside_context_stateless: outside every context a check works on throw-away dictionaries *)
Theorem instancecheck_stateless flat a v vd s' :
  instancecheck flat lbl st a v [] = (vd, s') -> s' = [].
Proof. intros H. destruct (instancecheck_state flat a v []) as [m' [Hs _]]. now rewrite H in Hs. Qed.

Lemma walk_app us1 : forall us2 s,
  walk lbl st (us1 ++ us2) s = match walk lbl st us1 s with (Acc, s1) => walk lbl st us2 s1 | x => x end.
Proof.
  induction us1 as [|[a v] us1 IH]; intros us2 s; cbn; [reflexivity|].
  destruct (instancecheck false lbl st a v s) as [[] s']; auto.
Qed.

Lemma walk_stateless us : forall vd s', walk lbl st us [] = (vd, s') -> s' = [].
Proof.
  induction us as [|[a v] us IH]; intros vd s' H; cbn in H; [now inversion H|].
  destruct (instancecheck false lbl st a v []) as [vd1 s1] eqn:E. apply instancecheck_stateless in E. subst s1.
  destruct vd1; [eapply IH; exact H | now inversion H ..].
Qed.

Theorem walk_acc : forall us m s s',
  Forall (fun u => wf_annot (fst u)) us ->
  walk lbl st us (m :: s) = (Acc, s') ->
  exists m', s' = m' :: s /\ margs m' = margs m /\
             forall e, gamma m' e <-> gamma m e /\ Forall (full_sat lbl st (margs m) e) us.
Proof.
  induction us as [|[a v] us IH]; intros m s s' Hwf H.
  - inversion H; subst. exists m. split; [reflexivity|]. split; [reflexivity|]. intros e. split; [auto | tauto].
  - inversion Hwf as [|? ? Hwa Hwr]; subst. cbn [walk] in H.
    destruct (instancecheck false lbl st a v (m :: s)) as [[] s1] eqn:E; try discriminate.
    destruct (instancecheck_acc _ _ _ _ _ (proj1 Hwa) E) as [m1 [-> [Hargs Hg1]]].
    destruct (IH _ _ _ Hwr H) as [m' [-> [Hargs' Hg']]].
    exists m'. split; [reflexivity|]. split; [congruence|]. intros e.
    rewrite (Hg' e), (Hg1 e), Hargs. split.
    + intros [[Hg Hs] Hf]. auto.
    + intros [Hg Hf]. inversion Hf; subst. tauto.
Qed.

Theorem walk_rej : forall us m s s',
  Forall (fun u => wf_annot (fst u)) us ->
  walk lbl st us (m :: s) = (Rej, s') ->
  forall e, gamma m e -> ~ Forall (full_sat lbl st (margs m) e) us.
Proof.
  induction us as [|[a v] us IH]; intros m s s' Hwf H e Hg Hf; [discriminate|].
  inversion Hwf as [|? ? Hwa Hwr]; subst. inversion Hf as [|? ? Hfa Hfr]; subst. cbn [walk] in H.
  destruct (instancecheck false lbl st a v (m :: s)) as [[] s1] eqn:E; try discriminate.
  - destruct (instancecheck_acc _ _ _ _ _ (proj1 Hwa) E) as [m1 [-> [Hargs Hg1]]].
    apply (IH _ _ _ Hwr H e); [apply Hg1; auto | now rewrite Hargs].
  - destruct (instancecheck_rej _ _ _ _ _ (proj1 Hwa) E) as [_ Hn]. exact (Hn e Hg Hfa).
Qed.

(* a walk that does not raise accepts iff ONE assignment consistent with the bindings it started from satisfies every use *)
Theorem walk_iff_sat_from us m s vd s' :
  Forall (fun u => wf_annot (fst u)) us ->
  walk lbl st us (m :: s) = (vd, s') ->
  (forall x, vd <> Raise x) ->
  (vd = Acc <-> exists e, gamma m e /\ Forall (full_sat lbl st (margs m) e) us).
Proof.
  intros Hwf H Hnr. destruct vd as [| |x]; [| |destruct (Hnr x eq_refl)].
  - split; [intros _|reflexivity].
    destruct (walk_acc _ _ _ _ Hwf H) as [m' [_ [_ Hg]]].
    eexists. apply Hg, gamma_nonempty.
  - split; [discriminate|]. intros [e [Hg He]]. destruct (walk_rej _ _ _ _ Hwf H e Hg He).
Qed.

Theorem walk_order_independent_from us us' m s vd vd' s1 s2 :
  Permutation us us' ->
  Forall (fun u => wf_annot (fst u)) us ->
  walk lbl st us (m :: s) = (vd, s1) ->
  walk lbl st us' (m :: s) = (vd', s2) ->
  (forall x, vd <> Raise x) -> (forall x, vd' <> Raise x) ->
  vd = vd'.
Proof.
  intros Hp Hwf H1 H2 Hn1 Hn2.
  assert (Hwf' : Forall (fun u => wf_annot (fst u)) us') by (eapply Permutation_Forall; eauto).
  assert (Hiff : vd = Acc <-> vd' = Acc).
  { rewrite (walk_iff_sat_from _ _ _ _ _ Hwf H1 Hn1), (walk_iff_sat_from _ _ _ _ _ Hwf' H2 Hn2).
    split; intros [e [Hg He]]; exists e; split; auto;
      [exact (Permutation_Forall Hp He) | exact (Permutation_Forall (Permutation_sym Hp) He)]. }
  destruct vd as [| |x], vd' as [| |y]; try reflexivity; try (now destruct (Hn1 x)); try (now destruct (Hn2 y)).
  - symmetry. now apply Hiff.
  - now apply Hiff.
Qed.

End Instance.
