(* BroadcastFacts.v -- np.broadcast_shapes computes the least upper bound in the order "a can be broadcast TO s"
   (C01; the variadic branch of the check rests on it: C02, C04).  Everything is proved on reversed shapes, where
   right-alignment is a plain recursion from the head (`bcr`, `ler`), and carried over through `rev`. *)
From JT Require Import model.Broadcast proofs.BaseFacts.
From Coq Require Import Lia.

Definition ler (a s : list Z) : Prop := bcr a s = Some s.
Definition ble (a s : list Z) : Prop := bcast a s = Some s.

(* `x = 1 \/ x = z`: an axis of size x can be broadcast to size z *)
Lemma bce_le x z : bce x z = Some z <-> (x = 1 \/ x = z).
Proof.
  unfold bce. destruct (Z.eqb_spec x 1); [|destruct (Z.eqb_spec z 1); [|destruct (Z.eqb_spec x z)]].
  all: split; [intros H; inversion H; lia | intros H].
  1-3: f_equal; lia.
  lia.
Qed.

Lemma bce_lub x y z : (x = 1 \/ x = z) /\ (y = 1 \/ y = z) <-> exists l, bce x y = Some l /\ (l = 1 \/ l = z).
Proof.
  unfold bce. destruct (Z.eqb_spec x 1); [|destruct (Z.eqb_spec y 1); [|destruct (Z.eqb_spec x y)]].
  all: split; [intros H | intros [l [H Hl]]; inversion H; lia].
  1-3: eexists; split; [reflexivity | lia].
  lia.
Qed.

Lemma bce_comm x y : bce x y = bce y x.
Proof.
  unfold bce. destruct (Z.eqb_spec x 1), (Z.eqb_spec y 1); subst; try reflexivity.
  destruct (Z.eqb_spec x y), (Z.eqb_spec y x); subst; congruence.
Qed.

Lemma bcr_nil_r a : bcr a [] = Some a. Proof. destruct a; reflexivity. Qed.

Lemma bcr_comm a : forall b, bcr a b = bcr b a.
Proof.
  induction a as [|x a IH]; intros b.
  - cbn. now rewrite bcr_nil_r.
  - destruct b as [|y b]; [reflexivity|]. cbn [bcr]. now rewrite bce_comm, IH.
Qed.

Lemma bcast_comm a b : bcast a b = bcast b a.
Proof. unfold bcast. now rewrite bcr_comm. Qed.

Lemma ler_nil s : ler [] s. Proof. unfold ler; destruct s; reflexivity. Qed.

Lemma ler_cons x a z s : ler (x :: a) (z :: s) <-> (x = 1 \/ x = z) /\ ler a s.
Proof.
  unfold ler; cbn [bcr]. rewrite <- bce_le.
  destruct (bce x z), (bcr a s); split; try intros [H1 H2]; try congruence. intros H. inversion H; subst. auto.
Qed.

Lemma ler_cons_nil x a : ~ ler (x :: a) []. Proof. unfold ler; cbn. discriminate. Qed.

Theorem bcr_lub a : forall b s, ler a s /\ ler b s <-> exists l, bcr a b = Some l /\ ler l s.
Proof.
  induction a as [|x a IH]; intros b s.
  { cbn. rewrite ex_Some_eq. pose proof (ler_nil s). tauto. }
  destruct b as [|y b].
  { cbn. rewrite ex_Some_eq. pose proof (ler_nil s). tauto. }
  cbn [bcr]. destruct s as [|z s].
  { split; [intros [Ha _]; destruct (ler_cons_nil _ _ Ha)|].
    intros [l [H Hl]]. destruct (bce x y), (bcr a b); inversion H; subst. destruct (ler_cons_nil _ _ Hl). }
  rewrite !ler_cons. transitivity (((x = 1 \/ x = z) /\ (y = 1 \/ y = z)) /\ ler a s /\ ler b s); [tauto|].
  rewrite bce_lub, IH. destruct (bce x y) as [l|], (bcr a b) as [r|].
  (* bce x y or bcr a b is None: both sides say that a Some is None *)
  2-4: split; [intros [[? [? _]] [? [? _]]] | intros [? [? _]]]; discriminate.
  rewrite !ex_Some_eq, ler_cons. reflexivity.
Qed.

Lemma ler_refl s : ler s s.
Proof. induction s as [|z s IH]; [reflexivity|]. apply ler_cons; auto. Qed.

Lemma rev_inj (a b : list Z) : rev a = rev b -> a = b.
Proof. intros H. rewrite <- (rev_involutive a), <- (rev_involutive b). now rewrite H. Qed.

Lemma bcast_some a b l : bcast a b = Some l <-> bcr (rev a) (rev b) = Some (rev l).
Proof.
  unfold bcast. split.
  - destruct (bcr (rev a) (rev b)) as [r|]; cbn; [|discriminate].
    intros H. inversion H. now rewrite rev_involutive.
  - intros ->. cbn. now rewrite rev_involutive.
Qed.

Lemma ble_ler a s : ble a s <-> ler (rev a) (rev s).
Proof. apply bcast_some. Qed.

Theorem ble_refl s : ble s s.
Proof. apply ble_ler, ler_refl. Qed.

Theorem bcast_lub a b s : (ble a s /\ ble b s) <-> exists l, bcast a b = Some l /\ ble l s.
Proof.
  rewrite !ble_ler, bcr_lub. split; intros [l [Hl Hls]]; exists (rev l).
  - rewrite bcast_some, ble_ler, rev_involutive. auto.
  - apply bcast_some in Hl. apply ble_ler in Hls. auto.
Qed.

Lemma bcast_lub_some a b l s : bcast a b = Some l -> (ble l s <-> ble a s /\ ble b s).
Proof. intros H. now rewrite bcast_lub, H, ex_Some_eq. Qed.

Lemma bcast_none_no_ub a b s : bcast a b = None -> ble a s -> ble b s -> False.
Proof. intros H Ha Hb. destruct (proj1 (bcast_lub a b s) (conj Ha Hb)) as [l [Hl _]]. congruence. Qed.

Lemma bcast_upper a b l : bcast a b = Some l -> ble a l /\ ble b l.
Proof. intros H. apply (bcast_lub_some _ _ _ _ H), ble_refl. Qed.

Lemma ble_trans a b c : ble a b -> ble b c -> ble a c.
Proof. intros Hab Hbc. apply (bcast_lub a b c). eauto. Qed.

Lemma ble_antisym a b : ble a b -> ble b a -> a = b.
Proof. unfold ble. rewrite bcast_comm. congruence. Qed.

Lemma zlist_eqb_eq a : forall b, zlist_eqb a b = true <-> a = b.
Proof.
  induction a as [|x a IH]; destruct b as [|y b]; cbn; try (split; congruence).
  rewrite andb_true_iff, Z.eqb_eq, IH. split; [intros [-> ->]; reflexivity | intros H; inversion H; auto].
Qed.

Lemma zlist_eqb_refl a : zlist_eqb a a = true. Proof. now apply zlist_eqb_eq. Qed.

Lemma zlist_eqb_spec a b : reflect (a = b) (zlist_eqb a b).
Proof. apply iff_reflect. symmetry. apply zlist_eqb_eq. Qed.

(* numpy's corner cases *)
Example bcast_examples :
  bcast [2;2;3] [4;1] = None /\ bcast [2;1;3] [5;1] = Some [2;5;3] /\ bcast [1] [0] = Some [0] /\
  bcast [0] [1] = Some [0] /\ bcast [0] [2] = None /\ bcast [] [3;4] = Some [3;4].
Proof. repeat split. Qed.
