(* ConfigFacts.v -- the checking switch of model/Config.v (C19): which values `_maybestr2bool` takes for true and for
   false, and that every call of a history of updates and calls behaves according to the flag in force when it is made. *)
From JT Require Import model.Config proofs.BaseFacts.

Lemma smem_In s l : smem s l = true <-> In s l.
Proof. apply existsb_eqb_In. Qed.

(* in whichever order the source lists them *)
Lemma spellings_are_documented s :
  smem s false_spellings = smem s ["0"; "false"] /\ smem s true_spellings = smem s ["1"; "true"].
Proof. split; apply Bool.eq_iff_eq_true; rewrite !smem_In; vm_compute; tauto. Qed.

Lemma maybestr2bool_str s :
  maybestr2bool (VStr s) =
  if smem (lower s) ["0"; "false"] then Some false else if smem (lower s) ["1"; "true"] then Some true else None.
Proof. unfold maybestr2bool. destruct (spellings_are_documented (lower s)) as [-> ->]. reflexivity. Qed.

Lemma str_accepted s b : maybestr2bool (VStr s) = Some b <-> In (lower s) (if b then ["1"; "true"] else ["0"; "false"]).
Proof.
  rewrite maybestr2bool_str, <- smem_In. destruct b.
  - destruct (smem (lower s) ["1"; "true"]) eqn:E1.
    + (* a true spelling is not a false one *)
      apply smem_In in E1. destruct E1 as [<-|[<-|[]]]; cbn; tauto.
    + destruct (smem (lower s) ["0"; "false"]); split; discriminate.
  - destruct (smem (lower s) ["0"; "false"]); [tauto|].
    destruct (smem (lower s) ["1"; "true"]); split; discriminate.
Qed.

Lemma str_rejected s : maybestr2bool (VStr s) = None <-> ~ In (lower s) ["0"; "false"; "1"; "true"].
Proof.
  rewrite maybestr2bool_str. change ["0"; "false"; "1"; "true"] with (["0"; "false"] ++ ["1"; "true"])%list.
  rewrite in_app_iff, <- !smem_In.
  destruct (smem (lower s) ["0"; "false"]), (smem (lower s) ["1"; "true"]); intuition discriminate.
Qed.

(* the flag in force after a history of updates (a rejected update leaves it) and calls *)
Fixpoint flag_after (flag : bool) (ops : list cop) : bool :=
  match ops with
  | [] => flag
  | OUpdate v :: r => flag_after (match maybestr2bool v with Some b => b | None => flag end) r
  | OCall _ :: r => flag_after flag r
  end.

Theorem toggle : forall pre flag c post,
  nth_error (run_ops flag (pre ++ OCall c :: post)) (length pre) =
  Some (wrapper_trace (flag_after flag pre) false false c).
Proof.
  induction pre as [|o pre IH]; intros flag c post; cbn.
  - reflexivity.
  - destruct o as [v|c'].
    + destruct (maybestr2bool v); apply IH.
    + apply IH.
Qed.

Example toggle_nonvacuous :
  let bad := mkcall true false true false in
  run_ops false [OCall bad; OUpdate (VStr "TRUE"); OCall bad; OUpdate (VStr "yes"); OCall bad; OUpdate (VBool false); OCall bad]
  = [[EBind; EPush; EParamCheck; EPop; ETypeCheckError]; []; [EBody]; [ETypeError]; [EBody]; []; [EBind; EPush; EParamCheck; EPop; ETypeCheckError]].
Proof. vm_compute. reflexivity. Qed.
