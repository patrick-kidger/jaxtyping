(* PWrapperFacts.v -- the error path of the decorator with PyTree-annotated parameters (model/PWrapper.v). *)
From Coq Require Import Lia.
From JT Require Import model.PWrapper proofs.PyTreeFacts.

Section PW.
Variable st : symtab.

(* a use that does not accept leaves every frame of the context stack as it was: arrays by the snapshot of
   __instancecheck_str__, PyTrees by the snapshot of _MetaPyTree.__instancecheck__ *)
Theorem run_pstep_not_acc_restores u s vd s' :
  run_pstep st u s = (vd, s') -> vd <> Acc -> ps_stack s' = ps_stack s.
Proof.
  destruct u as [a v|[l|] sopt x].
  - apply arr_check_not_acc_restores.
  - exact (pytree_reject_restores st l sopt x s vd s').
  - intros H _. inversion H; subst. congruence.
Qed.

(* where a walk stops: everything before was accepted, the stopping use did not accept and left nothing behind *)
Theorem pwalk_stops_at_first_failure us : forall s vd s',
  pwalk st us s = (vd, s') -> vd <> Acc ->
  exists pre u post s1, us = (pre ++ u :: post)%list /\ pwalk st pre s = (Acc, s1) /\
                        run_pstep st u s1 = (vd, s') /\ ps_stack s' = ps_stack s1.
Proof.
  induction us as [|u r IH]; intros s vd s' H Hv; cbn [pwalk] in H; [inversion H; subst; congruence|].
  destruct (run_pstep st u s) as [[] s1] eqn:E.
  (* the first use does not accept: the walk stops here *)
  2,3: inversion H; subst; exists [], u, r, s; cbn; repeat split; auto; eapply run_pstep_not_acc_restores; eauto.
  destruct (IH _ _ _ H Hv) as (pre & u' & post & s2 & -> & Hp & Hu & Hs).
  exists (u :: pre), u', post, s2. cbn [pwalk app]. rewrite E. auto.
Qed.

Theorem pproblem_blames_first_failure us : forall idx s k s',
  pproblem st us idx s = (PBlame (Some k), s') ->
  exists pre u post s1 vd, us = (pre ++ u :: post)%list /\ k = (idx + length pre)%nat /\
                           pwalk st pre s = (Acc, s1) /\ run_pstep st u s1 = (vd, s') /\ vd <> Acc /\
                           ps_stack s' = ps_stack s1.
Proof.
  induction us as [|u r IH]; intros idx s k s' H; cbn [pproblem] in H; [discriminate|].
  destruct (run_pstep st u s) as [[| |e] s1] eqn:E; [| |destruct (is_exception_subclass e); [|discriminate]].
  (* rejected, or raised an Exception: this is the blamed parameter *)
  2,3: inversion H; subst; eexists [], u, r, s, _; cbn; repeat split; eauto; try discriminate;
       eapply run_pstep_not_acc_restores; eauto; discriminate.
  destruct (IH _ _ _ _ H) as (pre & u' & post & s2 & vd & -> & -> & Hp & Hu & Hv & Hs).
  exists (u :: pre), u', post, s2, vd. cbn [pwalk app length]. rewrite E. repeat split; auto. lia.
Qed.

Theorem pproblem_none us : forall idx s s', pproblem st us idx s = (PBlame None, s') -> pwalk st us s = (Acc, s').
Proof.
  induction us as [|u r IH]; intros idx s s' H; cbn [pproblem pwalk] in *; [inversion H; reflexivity|].
  destruct (run_pstep st u s) as [v1 s1]. destruct v1 as [| |e]; [eapply IH; eauto | discriminate|].
  destruct (is_exception_subclass e); discriminate.
Qed.

(* a TypeCheckError lists the top frame of the context at that moment; it comes from a parameter walk that did not accept,
   followed by the search for the parameter to blame, or from the walk over parameters and return value *)
Lemma pcall_typecheck_cases params ret s0 stg k fr s' :
  pcall_new st params ret s0 = (PCTypeCheck stg k fr, s') ->
  fr = top_frame s' /\
  match stg with
  | SParams => exists vw sw, pwalk st params s0 = (vw, sw) /\ vw <> Acc /\ pproblem st params 0 sw = (PBlame k, s')
  | SReturn => exists s1 r vd, pwalk st params s0 = (Acc, s1) /\ ret = Some r /\
                               pwalk st (params ++ [r]) s1 = (vd, s') /\ vd <> Acc
  end.
Proof.
  unfold pcall_new. destruct (pwalk st params s0) as [[| |e] s1]; [| |destruct (converted e); [|discriminate]].
  2,3: destruct (pproblem st params 0 s1) as [[kk|e2] s2] eqn:Ep; intros H; inversion H; subst;
       split; [reflexivity | eexists _, _; repeat split; [discriminate | exact Ep]].
  destruct ret as [r|]; [|discriminate].
  destruct (pwalk st (params ++ [r]) s1) as [[| |e2] s2] eqn:E2; [discriminate| |destruct (converted e2); [|discriminate]].
  all: intros H; inversion H; subst; split; [reflexivity | eexists _, _, _; repeat split; [exact E2 | discriminate]].
Qed.

Lemma top_frame_of_stack s s' : ps_stack s' = ps_stack s -> top_frame s' = top_frame s.
Proof. unfold top_frame. now intros ->. Qed.

End PW.
