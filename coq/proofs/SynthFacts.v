(* SynthFacts.v -- _gensym returns the first candidate that is not taken, hence a fresh one: what the theorems of props/C07.v on generated
   names are proved from. *)
From JT Require Import model.Synth proofs.BaseFacts.
From Coq Require Import Lia FinFun.

Lemma cand_inj p i j : cand p i = cand p j -> i = j.
Proof. unfold cand. intros H. apply app_cancel_l in H. now apply ns_inj. Qed.

Lemma not_all_taken names p : ~ forall j, j <= length names -> In (cand p j) names.
Proof.
  intros H.
  assert (Hlen : length (map (cand p) (seq 0 (S (length names)))) <= length names).
  { apply NoDup_incl_length.
    - apply FinFun.Injective_map_NoDup; [intros a b; apply cand_inj | apply seq_NoDup].
    - intros x (j & <- & Hj%in_seq)%in_map_iff. apply H. lia. }
  rewrite map_length, seq_length in Hlen. lia.
Qed.

Lemma gensym_from_spec names p : forall f i,
  exists k, i <= k <= i + f /\ gensym_from names p f i = cand p k /\
            (forall j, i <= j < k -> In (cand p j) names) /\ (k < i + f -> ~ In (cand p k) names).
Proof.
  induction f as [|f IH]; intros i; cbn [gensym_from].
  - exists i. repeat split; (reflexivity || lia).
  - destruct (smem (cand p i) names) eqn:E.
    + destruct (IH (S i)) as (k & Hk & -> & Hlt & Hfree). exists k. repeat split; try lia.
      * intros j Hj. destruct (Nat.eq_dec j i) as [->|]; [now apply existsb_eqb_In | apply Hlt; lia].
      * intros Hk'. apply Hfree. lia.
    + exists i. repeat split; try lia. intros _ Hin%existsb_eqb_In. exact (eq_true_false_abs _ Hin E).
Qed.

(* _gensym returns the first name that is not taken -- whatever the taken names are (T0, default0, ret0, the
   function's own name ...); with len(names) + 1 candidates the fuel cannot run out before one is free *)
Theorem gensym_first_free names p :
  exists k, k <= length names /\ gensym names p = cand p k /\ ~ In (cand p k) names /\
            forall j, j < k -> In (cand p j) names.
Proof.
  unfold gensym. destruct (gensym_from_spec names p (length names) 0) as (k & Hk & -> & Hlt & Hfree).
  exists k. repeat split; [lia | | intros j Hj; apply Hlt; lia].
  intros Hin. destruct (Nat.eq_dec k (length names)) as [->|]; [|apply Hfree; [lia | exact Hin]].
  apply (not_all_taken names p). intros j Hj.
  destruct (Nat.eq_dec j (length names)) as [->|]; [exact Hin | apply Hlt; lia].
Qed.

Example gensym_collisions :
  gen_names ["T1"] ["x"; "T0"; "default0"; "T2"] 3 = [("T3", "default1"); ("T4", "default2"); ("T5", "default3")] /\
  gensym ["x"; "ret0"; "ret1"] "ret" = "ret2".
Proof. split; vm_compute; reflexivity. Qed.
