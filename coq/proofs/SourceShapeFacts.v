(* SourceShapeFacts.v -- with the exception-safety structure read from the source (gen/Brackets.v: the rollback of the two
   checks, the place of the disabled test) the parametrised definitions of model/SourceShape.v are the model's, by
   conversion, and inherit its theorems; without it a computed witness refutes each (props C04, C19).  The finally around
   the leaf loop is treated in props/C12.v in the same way. *)
From JT Require Import model.SourceShape proofs.CheckFacts proofs.PyTreeFacts.

Lemma instancecheck_src_true flat lbl st a v s : instancecheck_src true flat lbl st a v s = instancecheck flat lbl st a v s.
Proof. reflexivity. Qed.

Theorem instancecheck_src_restores rb flat lbl st a v s vd s' :
  rb = true -> instancecheck_src rb flat lbl st a v s = (vd, s') -> vd <> Acc -> s' = s.
Proof. intros ->. rewrite instancecheck_src_true. apply instancecheck_not_acc_restores. Qed.

Lemma pytree_check_src_true st l sopt x s : pytree_check_src st true l sopt x s = leafmatch st (LPyTree l sopt) x s.
Proof. rewrite leafmatch_pytree. reflexivity. Qed.

Theorem pytree_check_src_restores rb st l sopt x s vd s' :
  rb = true -> pytree_check_src st rb l sopt x s = (vd, s') -> vd <> Acc -> ps_stack s' = ps_stack s.
Proof. intros ->. rewrite pytree_check_src_true. apply pytree_reject_restores. Qed.

Theorem wrapper_trace_src_transparent early d n1 n2 c :
  early = true -> d || n1 || n2 = true -> wrapper_trace_src early d n1 n2 c = [EBody].
Proof. intros -> H. unfold wrapper_trace_src, wrapper_trace. rewrite H. reflexivity. Qed.
