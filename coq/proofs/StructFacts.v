(* StructFacts.v -- structure strings and the structure step of a PyTree check (C09). *)
From JT Require Import model.PyTreeCheck proofs.TreeFacts.
From Coq Require Import Lia.
Open Scope list_scope.

Lemma is_dots_eq p : is_dots p = true <-> p = "...".
Proof. unfold is_dots. apply String.eqb_eq. Qed.

Lemma dots_not_identifier p : is_dots p = true -> is_identifier p = false.
Proof. intros H. apply is_dots_eq in H. subst. reflexivity. Qed.

(* the documented shape: identifiers, optionally preceded or followed (not both) by `...` *)
Definition all_ident (l : list string) : Prop := Forall (fun p => is_identifier p = true) l.
Definition struct_ok (pieces : list string) : Prop :=
  exists ids, ids <> [] /\ all_ident ids /\ (pieces = ids \/ pieces = "..." :: ids \/ pieces = ids ++ ["..."]).

(* the loop of lines 219-239 with the length made a parameter *)
Section VL.
Variable n : nat.
Fixpoint vloop (l : list string) (idx : nat) : bool :=
  match l with
  | [] => true
  | p :: r =>
      (if ((idx =? 0)%nat || (idx =? n - 1)%nat) && is_dots p then true else is_identifier p) && vloop r (S idx)
  end.
End VL.

Lemma validate_unfold s :
  validate_structure s =
  match split_ws s with
  | [] => false
  | p0 :: _ => negb (is_dots p0 && is_dots (last (split_ws s) "")) && vloop (length (split_ws s)) (split_ws s) 0
  end.
Proof. unfold validate_structure. destruct (split_ws s); reflexivity. Qed.

Lemma forallb_all_ident l : forallb is_identifier l = true <-> all_ident l.
Proof. unfold all_ident. rewrite forallb_forall, Forall_forall. tauto. Qed.

(* from index >= 1 on, only the last piece may be `...` *)
Lemma vloop_tail n pl : forall mid idx, (0 < idx)%nat -> n = (idx + length mid + 1)%nat ->
  vloop n (mid ++ [pl]) idx = forallb is_identifier mid && (is_dots pl || is_identifier pl).
Proof.
  induction mid as [|p mid IH]; intros idx Hi Hn; cbn [app vloop forallb length] in *.
  - replace (idx =? n - 1)%nat with true by (symmetry; apply Nat.eqb_eq; lia).
    rewrite orb_true_r, andb_true_r. now destruct (is_dots pl).
  - rewrite IH by lia. replace (idx =? 0)%nat with false by (symmetry; apply Nat.eqb_neq; lia).
    replace (idx =? n - 1)%nat with false by (symmetry; apply Nat.eqb_neq; lia). apply andb_assoc.
Qed.

Lemma struct_ok_one p : struct_ok [p] <-> is_identifier p = true.
Proof.
  split.
  - intros (ids & Hne & Hid & [<- | [[= -> <-] | H]]); [now inversion Hid | congruence |].
    destruct ids as [|? []]; [congruence | discriminate | discriminate].
  - intros H. exists [p]. repeat split; [discriminate | now constructor | auto].
Qed.

Lemma all_ident_ends p0 mid pl :
  all_ident (p0 :: mid ++ [pl]) <-> is_identifier p0 = true /\ all_ident mid /\ is_identifier pl = true.
Proof. unfold all_ident. rewrite Forall_cons_iff, Forall_app, Forall_cons_iff, Forall_nil_iff. tauto. Qed.

(* the documented shape, on a list given by its first, middle and last pieces *)
Lemma struct_ok_ends p0 mid pl :
  struct_ok (p0 :: mid ++ [pl]) <->
  all_ident mid /\ (is_identifier p0 = true /\ is_identifier pl = true \/
                    p0 = "..." /\ is_identifier pl = true \/ is_identifier p0 = true /\ pl = "...").
Proof.
  split.
  - intros (ids & _ & Hid & [<- | [[= <- <-] | H]]).
    + apply all_ident_ends in Hid. tauto.
    + apply Forall_app in Hid as [Hm Hl]. inversion Hl. auto.
    + apply (app_inj_tail (p0 :: mid) ids) in H as [<- ->]. inversion Hid. auto.
  - intros [Hm [[H0 Hl] | [[-> Hl] | [H0 ->]]]].
    + exists (p0 :: mid ++ [pl]). rewrite all_ident_ends. repeat split; auto. discriminate.
    + exists (mid ++ [pl]). repeat split; [now destruct mid | apply Forall_app; split; [assumption | now constructor] | auto].
    + exists (p0 :: mid). repeat split; [discriminate | now constructor | auto].
Qed.

Definition composed (ds : list tdef) : tdef := fold_right compose star ds.

Theorem equal_on_later_use n x tm prev :
  aget tm n = Some prev -> structure_step (SName n) x tm = if tdef_eqb prev x then StOk tm else StNo.
Proof. cbn. now intros ->. Qed.

Lemma reflected_step (b : bool) (P : Prop) (tm : alist tdef) : (b = true <-> P) ->
  ((if b then StOk tm else StNo) = StOk tm <-> P) /\ ((if b then StOk tm else StNo) = StOk tm \/ (if b then StOk tm else StNo) = StNo).
Proof. intros <-. destruct b; split; auto; split; congruence. Qed.

(* a composite whose names are all bound: one boolean test of the tree against the composition of the named structures *)
Lemma structure_step_comp pre suf names ds x tm :
  lookup_all tm names = Some ds ->
  structure_step (SComp pre suf names) x tm =
  if (if pre then is_prefix (composed ds) x else if suf then suffix_check (composed ds) x else tdef_eqb x (composed ds))
  then StOk tm else StNo.
Proof. intros H. cbn [structure_step]. rewrite H, compose_impl_spec. now destruct pre, suf. Qed.

(* ... which decides exactly the documented relation: `S T` is S o T, `T ...` has T as a prefix, `... T` is U o T for
   some U; and it never raises *)
Theorem composite_step_exact pre suf names ds x tm :
  lookup_all tm names = Some ds ->
  (structure_step (SComp pre suf names) x tm = StOk tm <->
   if pre then Prefix (composed ds) x else if suf then exists u, x = compose u (composed ds) else x = composed ds) /\
  (structure_step (SComp pre suf names) x tm = StOk tm \/ structure_step (SComp pre suf names) x tm = StNo).
Proof.
  intros H. rewrite (structure_step_comp _ _ _ _ _ _ H). apply reflected_step.
  destruct pre; [apply is_prefix_exact | destruct suf; [apply suffix_exact | apply tdef_eqb_eq]].
Qed.

Example read_structure_forms :
  read_structure "T" = SName "T" /\ read_structure "S T" = SComp false false ["S"; "T"] /\
  read_structure "T ..." = SComp true false ["T"] /\ read_structure "... T" = SComp false true ["T"] /\
  read_structure "S  T ..." = SComp true false ["S"; "T"] /\ read_structure "... S T" = SComp false true ["S"; "T"].
Proof. repeat split. Qed.

Example validate_examples :
  map validate_structure ["T"; "S T"; "T ..."; "... T"; "..."; "... ..."; "... T ..."; ""; "  "; "T, S"; "1T"; "T ... S"; "a b c ..."]
  = [true; true; true; true; false; false; false; false; false; false; false; false; true].
Proof. vm_compute. reflexivity. Qed.
