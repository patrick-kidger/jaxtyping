(* TwoPassFacts.v -- the information order on memos: an accepted check moves the memo up and is accepted again, without
   changing anything, from every memo above its result (one lemma `*_inv` per level of the check, `walk_again` for a walk).  Hence an accepted check
   is idempotent (C04), and re-walking uses that were accepted changes nothing: the wrapper's second pass over the parameters
   is idempotent, so a call is accepted iff ONE walk over parameters + return value accepts (C02, C13). *)
From JT Require Import model.Wrapper proofs.BroadcastFacts proofs.CheckFacts.

Lemma extends_refl a : extends a a. Proof. intros k v H; exact H. Qed.
Lemma extends_trans a b c : extends a b -> extends b c -> extends a c.
Proof. intros H1 H2 k v H. auto. Qed.
Lemma extends_aset a k z : aget a k = None -> extends a (aset a k z).
Proof. intros Hn k' v H. rewrite aget_aset. destruct (String.eqb_spec k' k); congruence. Qed.

Section Dims.
Variables (lbl : option string) (st : symtab) (args : alist Z).

Lemma stage2_extends sm smx e v : extends sm smx -> stage2 sm args e = EVal v -> stage2 smx args e = EVal v.
Proof.
  intros Hx. revert v. induction e as [z|n|n|b|a IHa|op a IHa b IHb|a IHa b IHb|a IHa b IHb]; intros v; cbn; auto.
  (* the three binary forms *)
  3-5: destruct (stage2 sm args a); destruct (stage2 sm args b); try discriminate;
       now rewrite (IHa _ eq_refl), (IHb _ eq_refl).
  - destruct (aget sm n) eqn:E; [|discriminate]. now rewrite (Hx _ _ E).
  - destruct (stage2 sm args a); try discriminate. now rewrite (IHa _ eq_refl).
Qed.

Lemma eval_sym_extends sm smx e v : extends sm smx -> eval_sym sm args e = EVal v -> eval_sym smx args e = EVal v.
Proof. unfold eval_sym. intros Hx. destruct (stage1 args e); [auto|]. now apply stage2_extends. Qed.

Lemma dim_step_cont_inv d z sm sm1 :
  dim_step lbl st args d z sm = SCont sm1 ->
  extends sm sm1 /\ forall smx, extends sm1 smx -> dim_step lbl st args d z smx = SCont smx.
Proof.
  intros H.
  destruct (dim_step_cont_cases _ _ _ _ _ _ _ H)
    as [(-> & Hall & _) | [(src & bc & e & -> & He & Hv & ->) | (n & bc & tp & k & -> & Hk & Hg & Hb)]].
  - split; [apply extends_refl | auto].
  - split; [apply extends_refl|]. intros smx Hx. cbn. destruct (bc && (z =? 1)%Z); [reflexivity|].
    now rewrite He, (eval_sym_extends _ _ _ _ Hx Hv), Z.eqb_refl.
  - split; [destruct Hb as [->|(_ & Hn & ->)]; [apply extends_refl | now apply extends_aset]|].
    intros smx Hx. cbn. destruct (bc && (z =? 1)%Z); [reflexivity|]. now rewrite Hk, (Hx _ _ Hg), Z.eqb_refl.
Qed.

Theorem check_dims_ok_inv : forall dl sh sm sm',
  check_dims lbl st args dl sh sm = (COk, sm') ->
  extends sm sm' /\ forall smx, extends sm' smx -> check_dims lbl st args dl sh smx = (COk, smx).
Proof.
  induction dl as [|d dl IH]; intros sh sm sm' H; [|destruct sh as [|z sh]].
  1,2: inversion H; split; [apply extends_refl | reflexivity].
  cbn [check_dims] in *. destruct (dim_step lbl st args d z sm) as [sm1| |e] eqn:Es; try discriminate.
  destruct (dim_step_cont_inv _ _ _ _ Es) as [X1 A1], (IH _ _ _ H) as [X A].
  split; [eapply extends_trans; eauto|].
  intros smx Hx. rewrite A1 by (eapply extends_trans; eauto). auto.
Qed.

End Dims.

(* the information order on variadic memos: a pinned shape stays; a lower bound may grow or get pinned above it *)
Definition vle (vm vmx : alist (bool * list Z)) : Prop :=
  forall n bc s, aget vm n = Some (bc, s) ->
  exists bc' s', aget vmx n = Some (bc', s') /\ (if bc then ble s s' else bc' = false /\ s' = s).

Lemma vle_refl vm : vle vm vm.
Proof. intros n bc s H. exists bc, s. split; [exact H | apply (ele_refl (bc, s))]. Qed.

Lemma vle_trans a b c : vle a b -> vle b c -> vle a c.
Proof.
  intros H1 H2 n bc s Hn. destruct (H1 _ _ _ Hn) as (bc1 & s1 & Hg1 & R1), (H2 _ _ _ Hg1) as (bc2 & s2 & Hg2 & R2).
  exists bc2, s2. split; [exact Hg2 | exact (ele_trans (bc, s) (bc1, s1) (bc2, s2) R1 R2)].
Qed.

Lemma check_variadic_ok_inv name bc mid vm vm1 :
  check_variadic name bc mid vm = (COk, vm1) ->
  vle vm vm1 /\ forall vmx, vle vm1 vmx -> check_variadic name bc mid vmx = (COk, vmx).
Proof.
  intros H. destruct (check_variadic_lub _ _ _ _ _ H) as [[bc1 s1] [-> L]].
  destruct (proj1 (L _) (ele_refl _)) as [Hu Hp]. split.
  - intros n bc0 s0 Hn. rewrite aget_aset. destruct (String.eqb_spec n name) as [->|]; [|apply (vle_refl vm), Hn].
    exists bc1, s1. split; [reflexivity | now rewrite Hn in Hp].
  - intros vmx Hle. destruct (Hle name bc1 s1 (aget_aset_same _ _ _)) as (bcx & sx & Hgx & Rx).
    exact (check_variadic_noop _ _ _ _ _ Hgx (ele_trans (bc, mid) (bc1, s1) (bcx, sx) Hu Rx)).
Qed.

Lemma check_vdim_ok_inv lbl od mid vm vm1 :
  check_vdim lbl od mid vm = (COk, vm1) ->
  vle vm vm1 /\ forall vmx, vle vm1 vmx -> check_vdim lbl od mid vmx = (COk, vmx).
Proof.
  destruct od as [[| |? ? ?|n bc tp|? ?|? ?]|]; cbn; try discriminate.
  - intros H; inversion H. split; [apply vle_refl | reflexivity].
  - destruct (dkey lbl n tp) as [k|]; [|discriminate]. apply check_variadic_ok_inv.
Qed.

Definition mle (m mx : memo) : Prop :=
  extends (single m) (single mx) /\ vle (variadic m) (variadic mx) /\ margs m = margs mx.

Lemma mle_refl m : mle m m. Proof. repeat split; [apply extends_refl | apply vle_refl]. Qed.
Lemma mle_trans a b c : mle a b -> mle b c -> mle a c.
Proof. intros [H1 [H2 H3]] [H4 [H5 H6]]. repeat split; [eapply extends_trans; eauto | eapply vle_trans; eauto | congruence]. Qed.

Section Shape.
Variables (lbl : option string) (st : symtab).

Lemma check_shape_ok_inv d sh m m' :
  check_shape lbl st d sh m = (COk, m') ->
  mle m m' /\ forall mx, mle m' mx -> check_shape lbl st d sh mx = (COk, mx).
Proof.
  intros H. destruct (ivar d) as [i|] eqn:Ei.
  - pose proof (fun m => check_shape_var lbl st d sh m i Ei) as Eq. cbv zeta in Eq. rewrite Eq in H.
    destruct (length sh <? length (ds d) - 1)%nat; [discriminate|].
    destruct (check_dims _ _ _ (firstn _ _) _ _) as [[] sm1] eqn:E1; try discriminate.
    destruct (check_dims _ _ _ (skipn _ _) _ _) as [[] sm2] eqn:E2; try discriminate.
    destruct (check_vdim _ _ _ _) as [r3 vm] eqn:E3. inversion H; subst r3 m'.
    destruct (check_dims_ok_inv _ _ _ _ _ _ _ E1) as [X1 A1], (check_dims_ok_inv _ _ _ _ _ _ _ E2) as [X2 A2],
             (check_vdim_ok_inv _ _ _ _ _ E3) as [X3 A3].
    split; [repeat split; cbn; [eapply extends_trans; eauto | exact X3]|].
    intros mx (Hs & Hv & Ha). cbn in Hs, Hv, Ha.
    rewrite Eq, <- Ha, (A1 _ (extends_trans _ _ _ X2 Hs)), (A2 _ Hs), (A3 _ Hv), Ha. now destruct mx.
  - unfold check_shape in *. rewrite Ei in *. destruct (negb (length sh =? length (ds d))%nat); [discriminate|].
    destruct (check_dims _ _ _ _ _ _) as [r sm] eqn:E1. inversion H; subst r m'.
    destruct (check_dims_ok_inv _ _ _ _ _ _ _ E1) as [X1 A1].
    split; [repeat split; cbn; [exact X1 | apply vle_refl]|].
    intros mx (Hs & Hv & Ha). cbn in Hs, Hv, Ha. rewrite <- Ha, A1, Ha by exact Hs. now destruct mx.
Qed.

(* From here on nothing is assumed of the annotations: C02 and C04 state these facts with hypotheses (wf_annot, wf_dims, a
   non-empty stack) that the proofs do not need, and so does instancecheck_acc_inv below. *)
Lemma instancecheck_acc_inv_any a v m s s' :
  instancecheck false lbl st a v (m :: s) = (Acc, s') ->
  exists m', s' = m' :: s /\ mle m m' /\ forall mx, mle m' mx -> instancecheck false lbl st a v (mx :: s) = (Acc, mx :: s).
Proof.
  destruct (a_skip a) eqn:Hskip.
  - (* the shape is not looked at: accepted, nothing changed *)
    unfold instancecheck. rewrite Hskip. intros [= <-]. exists m. split; [reflexivity|]. split; [apply mle_refl | reflexivity].
  - intros H. rewrite (instancecheck_deep _ _ _ _ _ Hskip) in H. cbn [get_memo set_memo] in H.
    destruct (val_ok a v) eqn:Ev; [|discriminate].
    destruct (check_shape lbl st (a_dims a) (v_shape v) m) as [[] m'] eqn:E; try discriminate.
    inversion H; subst s'. destruct (check_shape_ok_inv _ _ _ _ E) as [Hle Hag].
    exists m'. split; [reflexivity|]. split; [exact Hle|].
    intros mx Hx. rewrite (instancecheck_deep _ _ _ _ _ Hskip), Ev. cbn [get_memo set_memo]. now rewrite (Hag mx Hx).
Qed.

Lemma instancecheck_acc_inv a v m s s' :
  wf_annot a -> instancecheck false lbl st a v (m :: s) = (Acc, s') ->
  exists m', s' = m' :: s /\ mle m m' /\ forall mx, mle m' mx -> instancecheck false lbl st a v (mx :: s) = (Acc, mx :: s).
Proof. intros _. apply instancecheck_acc_inv_any. Qed.

Theorem instancecheck_idempotent flat a v s s' :
  instancecheck flat lbl st a v s = (Acc, s') -> instancecheck flat lbl st a v s' = (Acc, s').
Proof.
  intros H. destruct flat.
  - (* the shape is not looked at: nothing was changed *)
    pose proof (instancecheck_shallow lbl st true a v s (orb_true_r _)) as Hs. rewrite H in Hs. cbn in Hs. now subst s'.
  - destruct s as [|m s].
    + (* outside every context: nothing is kept, the check runs on fresh empty memos again *)
      pose proof (instancecheck_stateless _ _ _ _ _ _ _ H). now subst s'.
    + destruct (instancecheck_acc_inv_any a v m s s' H) as [m' [-> [_ Hag]]]. apply Hag, mle_refl.
Qed.

Theorem walk_again : forall us m s s',
  walk lbl st us (m :: s) = (Acc, s') ->
  exists m', s' = m' :: s /\ mle m m' /\ forall mx, mle m' mx -> walk lbl st us (mx :: s) = (Acc, mx :: s).
Proof.
  induction us as [|[a v] us IH]; intros m s s' H.
  - inversion H; subst. exists m. split; [reflexivity|]. split; [apply mle_refl | reflexivity].
  - cbn [walk] in H. destruct (instancecheck false lbl st a v (m :: s)) as [[] s1] eqn:E; try discriminate.
    destruct (instancecheck_acc_inv_any _ _ _ _ _ E) as [m1 [-> [Hle1 Hag1]]].
    destruct (IH _ _ _ H) as [m' [-> [Hle' Hag']]].
    exists m'. split; [reflexivity|]. split; [eapply mle_trans; eauto|].
    intros mx Hx. cbn [walk]. rewrite (Hag1 mx (mle_trans _ _ _ Hle' Hx)). now apply Hag'.
Qed.

(* the wrapper's second pass walks the parameters again and then the return value; the parameters change nothing *)
Theorem second_pass_is_return_check params r s0 s1 :
  walk lbl st params s0 = (Acc, s1) ->
  walk lbl st (params ++ [r]) s1 = walk lbl st [r] s1 /\ walk lbl st (params ++ [r]) s0 = walk lbl st [r] s1.
Proof.
  intros Hw. destruct s0 as [|m s].
  - pose proof (walk_stateless _ _ _ _ _ Hw). subst s1. now rewrite !walk_app, Hw.
  - destruct (walk_again _ _ _ _ Hw) as [m' [-> [_ Hag]]]. now rewrite !walk_app, Hw, (Hag m' (mle_refl _)).
Qed.

End Shape.

Section Call.
Variables (lbl : option string) (st : symtab).

(* C02/C13: a decorated call (parameters walked, body, parameters and return value walked again) succeeds exactly
   when ONE assignment of sizes and shapes, consistent with what the context held before, satisfies every parameter and
   the return value *)
Theorem call_succeeds_iff_from params r m s vd s' :
  Forall (fun u => wf_annot (fst u)) (params ++ [r]) ->
  walk lbl st (params ++ [r]) (m :: s) = (vd, s') -> (forall x, vd <> Raise x) ->
  (fst (call_new lbl st params (Some r) (m :: s)) = CROk <->
   exists e, gamma m e /\ Forall (full_sat lbl st (margs m) e) (params ++ [r])).
Proof.
  intros Hwf Hw Hnr.
  rewrite <- (walk_iff_sat_from lbl st _ _ _ _ _ Hwf Hw Hnr).
  unfold call_new. destruct (walk lbl st params (m :: s)) as [[| |e] s1] eqn:Ep.
  - destruct (second_pass_is_return_check lbl st params r _ _ Ep) as [H1 H2].
    rewrite H1, <- H2, Hw. destruct vd as [| |x]; cbn; [tauto | split; discriminate | destruct (Hnr x eq_refl)].
  - rewrite walk_app, Ep in Hw. inversion Hw; subst.
    destruct (problem_arg lbl st params 0 s') as [[k|e] s2]; cbn; split; discriminate.
  - rewrite walk_app, Ep in Hw. inversion Hw; subst. destruct (Hnr e eq_refl).
Qed.

Theorem call_succeeds_iff_consistent_assignment params r args vd s' :
  Forall (fun u => wf_annot (fst u)) (params ++ [r]) ->
  walk lbl st (params ++ [r]) (push_memo [] args) = (vd, s') -> (forall x, vd <> Raise x) ->
  (fst (call_new lbl st params (Some r) (push_memo [] args)) = CROk <->
   exists e, Forall (full_sat lbl st args e) (params ++ [r])).
Proof. intros Hwf Hw Hnr. rewrite <- (ex_gamma_fresh args). exact (call_succeeds_iff_from _ _ _ _ _ _ Hwf Hw Hnr). Qed.
End Call.
