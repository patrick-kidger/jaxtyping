(* StrictWfFacts.v -- what the parser guarantees about its output: at most one variadic specifier, at index_variadic. *)
From JT Require Import model.PyL proofs.BaseFacts proofs.DimLangFacts proofs.PyLShapeFacts.
From Coq Require Import Lia.

Theorem parse_dims_strict_wf s d : parse_dims s = Ok d -> strict_wf d.
Proof.
  unfold parse_dims. destruct (parse_tokens (split_ws s) 0 None) as [[dl iv]|c] eqn:E; [|discriminate].
  intros [= <-]. apply parse_tokens_none in E. unfold strict_wf. cbn [ivar ds].
  destruct iv as [i|]; [|exact E].
  destruct E as (l1 & dv & l2 & -> & -> & Hv & Hn). rewrite forallb_app in Hn. apply andb_true_iff in Hn as [H1 H2]. cbn [Nat.add].
  split; [rewrite app_length; cbn; lia|]. split; [|split].
  - now rewrite firstn_app_exact.
  - now rewrite skipn_app, skipn_all2, (Nat.sub_succ_l _ _ (le_n _)), Nat.sub_diag by lia.
  - exists dv. split; [|exact Hv]. now rewrite nth_error_app2, Nat.sub_diag.
Qed.
