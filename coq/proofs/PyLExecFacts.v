(* PyLExecFacts.v -- stepping through a term of model/PyL.v one statement at a time: the interpreter's equations, stated over
   variables, and the few tactics the source-refinement proofs (PyLFacts, PyLShapeFacts, PyLHookFacts) are written in. *)
From JT Require Import model.PyL.

Section Exec.
Variables (lbl : option string) (st : symtab) (call : string -> list pval -> option (pres * list pval)).
Notation exec_list := (exec_list lbl st call).
Notation exec := (exec lbl st call).

Lemma exec_cons s r env : exec_list (s :: r) env = match exec s env with ONormal e => exec_list r e | o => o end.
Proof. reflexivity. Qed.

Lemma exec_single s env : exec_list [s] env = exec s env.
Proof. rewrite exec_cons. destruct (exec s env); reflexivity. Qed.

Lemma exec_app l1 l2 : forall env, exec_list (l1 ++ l2) env = match exec_list l1 env with ONormal e => exec_list l2 e | o => o end.
Proof. induction l1 as [|s l1 IH]; intros env; [reflexivity|]. cbn [app]. rewrite !exec_cons. destruct (exec s env); auto. Qed.

(* The statements that hold statements.  exec runs their blocks by a copy of exec_list nested in its own fixpoint; these
   equations (all by conversion) put the constant back, so that a block is entered without being run. *)
Lemma exec_if c t e env : exec (SIf c t e) env =
  match truthy (evale lbl env c) with
  | inl (Some true) => exec_list t env
  | inl (Some false) => exec_list e env
  | inl None => ORaise OtherExc env
  | inr ex => ORaise ex env
  end.
Proof. reflexivity. Qed.

Lemma exec_forzip x y a b body env : exec (SForZip x y a b body) env =
  match evale lbl env a, evale lbl env b with
  | RVal (VDims l1), RVal (VZs l2) => for_zip (exec_list body) x y l1 l2 env
  | RExn ex, _ => ORaise ex env
  | _, RExn ex => ORaise ex env
  | _, _ => ORaise OtherExc env
  end.
Proof. reflexivity. Qed.

Lemma exec_forin x a body env : exec (SForIn x a body) env =
  match evale lbl env a with
  | RVal (VStrs l) => for_in (exec_list body) x l env
  | RVal _ => ORaise OtherExc env
  | RExn ex => ORaise ex env
  end.
Proof. reflexivity. Qed.

Lemma exec_trykey x d k onmiss orelse env : exec (STryKey x d k onmiss orelse) env =
  match env d, evale lbl env k with
  | Some (VSingle m), RVal (VS kk) =>
      match aget m kk with Some z => exec_list orelse (upd env x (VZ z)) | None => exec_list onmiss env end
  | _, RExn ex => ORaise ex env
  | _, _ => ORaise OtherExc env
  end.
Proof. reflexivity. Qed.

Lemma exec_trykey2 x1 x2 d k onmiss orelse env : exec (STryKey2 x1 x2 d k onmiss orelse) env =
  match env d, evale lbl env k with
  | Some (VVariadic m), RVal (VS kk) =>
      match aget m kk with
      | Some (b, l) => exec_list orelse (upd (upd env x1 (VB b)) x2 (VZs l))
      | None => exec_list onmiss env
      end
  | _, RExn ex => ORaise ex env
  | _, _ => ORaise OtherExc env
  end.
Proof. reflexivity. Qed.

Lemma exec_trybroadcast x a b onfail env : exec (STryBroadcast x a b onfail) env =
  match evale lbl env a, evale lbl env b with
  | RVal (VZs la), RVal (VZs lb) =>
      match bcast la lb with Some r => ONormal (upd env x (VZs r)) | None => exec_list onfail env end
  | RExn ex, _ => ORaise ex env
  | _, RExn ex => ORaise ex env
  | _, _ => ORaise OtherExc env
  end.
Proof. reflexivity. Qed.

(* d[k] = v looks at d, k and v together: run in place, its cases multiply while the three are not yet known *)
Lemma exec_setitem_variadic d k v m kk b l env :
  env d = Some (VVariadic m) -> evale lbl env k = RVal (VS kk) -> evale lbl env v = RVal (VPair (VB b) (VZs l)) ->
  exec (SSetItem d k v) env = ONormal (upd env d (VVariadic (aset m kk (b, l)))).
Proof. intros Hd Hk Hv. lazy [PyL.exec]. rewrite Hd, Hk, Hv. reflexivity. Qed.

Lemma evale_and a b x y env : evale lbl env a = RVal (VB x) -> evale lbl env b = RVal (VB y) ->
  evale lbl env (PAnd a b) = RVal (VB (x && y)).
Proof. intros Ha Hb. cbn [evale]. rewrite Ha. destruct x; [exact Hb | reflexivity]. Qed.
End Exec.

(* cbn finishes a block (exec_list [] env) but never opens a statement: that is open_stmt, asked for by name *)
Arguments exec_list lbl st call !l env : simpl nomatch.

(* `run` computes what the statement in front says.  exec, evale and evals recurse on the program text, which is closed:
   lazy unfolds them completely (cbn takes seconds per statement on fixpoints of this size).  What they leave is about
   data -- a variable looked up through the upd's, two values compared, an attribute of a dim -- and cbn decides it where
   the data is known and leaves it folded where it is not (lazy would unfold String.eqb on two variables, or upd in an
   environment that is only passed on).  The goal is changed once, after both: the goal between them has every lookup
   open and every branch present, and would be type-checked again at Qed.
   `open_stmt` opens the first statement of a block: exec_cons, by conversion (rewritten, the equation would put the rest of
   the program into the proof term once more at every statement); `step` executes a plain statement; `step_in E` enters a
   statement that holds blocks, by its equation E above; `look` proves that a variable or an expression has the value claimed
   (just assigned, or by hypothesis); `fin` closes a path: the final environment is the one reached, and it holds the two
   dictionaries the model returns. *)
Ltac run :=
  match goal with |- ?g =>
    let g1 := eval lazy [exec evale evals] in g in
    let g2 := eval cbn [exec_list upd write_back truthy String.eqb Ascii.eqb Bool.eqb andb dim_attr dim_class val_eqb negb] in g1 in
    change g2
  end.
Ltac open_stmt :=
  match goal with |- context [exec_list ?l ?s ?c (?x :: ?r) ?e] =>
    change (exec_list l s c (x :: r) e) with (match exec l s c x e with ONormal e' => exec_list l s c r e' | o => o end)
  end.
Ltac step := open_stmt; run.
Ltac step_in E := open_stmt; rewrite E; run.
Ltac look := run; first [reflexivity | eassumption].
Ltac fin := eexists; split; [reflexivity | split; look].
