(* HookFrontFacts.v -- facts about the pytest option and the IPython magic (model/HookFront.v). *)
From Coq Require Import Lia.
From JT Require Import model.HookFront proofs.BaseFacts proofs.HookScopeFacts.

Fixpoint has_char (c : ascii) (s : string) : bool :=
  match s with EmptyString => false | String d r => Ascii.eqb d c || has_char c r end.

Lemma split_aux_nosep sep a : has_char sep a = false -> forall cur, split_aux sep a cur = [cur ++ a].
Proof.
  induction a as [|c r IH]; intros H cur; cbn [split_aux].
  - now rewrite append_nil_r.
  - cbn [has_char] in H. apply orb_false_iff in H as [Hc Hr]. now rewrite Hc, (IH Hr), append_assoc.
Qed.

Definition join_on (sep : ascii) (l : list string) : string := String.concat (String sep "") l.

Lemma join_on_cons sep x y r : join_on sep (x :: y :: r) = x ++ String sep (join_on sep (y :: r)).
Proof. reflexivity. Qed.

Theorem split_join sep l : l <> [] -> Forall (fun x => has_char sep x = false) l -> split_on sep (join_on sep l) = l.
Proof.
  unfold split_on. intros Hne Hall. induction Hall as [|x r Hx _ IH]; [congruence|]. destruct r as [|y r].
  - cbn. now rewrite split_aux_nosep.
  - rewrite join_on_cons, split_aux_sep, split_aux_nosep by exact Hx. cbn [append app]. f_equal. now apply IH.
Qed.

Fixpoint all_ws (s : string) : bool :=
  match s with EmptyString => true | String c r => is_ws c && all_ws r end.

Lemma lstrip_app x y : lstrip (x ++ y) = match lstrip x with "" => lstrip y | z => z ++ y end.
Proof. induction x as [|c r IH]; cbn [append lstrip]; [reflexivity|]. destruct (is_ws c); [exact IH | reflexivity]. Qed.

Lemma lstrip_all_ws w : all_ws w = true -> lstrip w = "".
Proof. induction w as [|c r IH]; cbn [all_ws lstrip]; [reflexivity|]. intros [-> Hr]%andb_true_iff. now apply IH. Qed.

Lemma lstrip_split s : exists w, all_ws w = true /\ s = w ++ lstrip s.
Proof.
  induction s as [|c r [w [Hw Hs]]]; [exists ""; split; reflexivity|].
  cbn [lstrip]. destruct (is_ws c) eqn:Hc.
  - exists (String c w). cbn [all_ws append]. rewrite Hc, Hw. split; [reflexivity | now rewrite <- Hs].
  - exists "". split; reflexivity.
Qed.

Lemma rstrip_all_ws w : all_ws w = true -> rstrip w = "".
Proof.
  induction w as [|c r IH]; cbn [all_ws]; [reflexivity|]. intros [Hc Hr]%andb_true_iff.
  cbn [rstrip]. now rewrite (IH Hr), Hc.
Qed.

Lemma rstrip_app x y : rstrip (x ++ y) = match rstrip y with "" => rstrip x | z => x ++ z end.
Proof.
  induction x as [|c r IH]; cbn [append rstrip]; [now destruct (rstrip y)|]. rewrite IH.
  destruct (rstrip y) as [|d z]; [reflexivity | now destruct r].
Qed.

Lemma rstrip_split s : exists w, all_ws w = true /\ s = rstrip s ++ w.
Proof.
  induction s as [|c r [w [Hw Hs]]]; [exists ""; split; reflexivity|].
  cbn [rstrip]. destruct (rstrip r) as [|d r'].
  - destruct (is_ws c) eqn:Hc.
    + exists (String c w). cbn [all_ws append]. rewrite Hc, Hw. split; [reflexivity|]. cbn in Hs. now rewrite <- Hs.
    + exists w. split; [exact Hw|]. cbn [append]. cbn in Hs. now rewrite <- Hs.
  - exists w. split; [exact Hw|]. cbn [append]. f_equal. exact Hs.
Qed.

(* "tight": no leading and no trailing whitespace (the empty string is tight) *)
Definition tight (x : string) : Prop := lstrip x = x /\ rstrip x = x.

Theorem pystrip_padded w1 x w2 : all_ws w1 = true -> all_ws w2 = true -> tight x -> pystrip (w1 ++ x ++ w2) = x.
Proof.
  intros H1 H2 [Hl Hr]. unfold pystrip. rewrite lstrip_app, (lstrip_all_ws w1 H1), lstrip_app, Hl. destruct x as [|c r].
  - now rewrite (lstrip_all_ws w2 H2).
  - now rewrite rstrip_app, (rstrip_all_ws w2 H2).
Qed.

Lemma last_str_snoc l x : last_str (l ++ [x]) = x.
Proof.
  induction l as [|y r IH]; [reflexivity|]. cbn [app last_str].
  destruct (r ++ [x])%list eqn:E; [destruct r; discriminate|]. exact IH.
Qed.

Lemma pytest_items_nonempty v : pytest_items v <> [].
Proof. unfold pytest_items, split_on. intros E%map_eq_nil. exact (split_aux_nonempty _ _ _ E). Qed.

Theorem pytest_configure_spec imported v names chk :
  pytest_configure imported v = PInstall names chk <->
  v <> "" /\ (names ++ [chk])%list = pytest_items v /\ forall n, In n names -> ~ In n imported.
Proof.
  unfold pytest_configure. destruct (String.eqb_spec v "") as [->|Hv]; [split; [discriminate | now intros [[] _]]|].
  destruct (exists_last (pytest_items_nonempty v)) as [l [x ->]]. rewrite removelast_last, last_str_snoc. split.
  - destruct (filter _ l) eqn:F; [|discriminate]. intros [= <- <-]. repeat split; [exact Hv|].
    intros n Hn Hi%existsb_eqb_In. assert (Hin : In n []) by (rewrite <- F; apply filter_In; now split). exact Hin.
  - intros (_ & [-> ->]%app_inj_tail & Hfresh). destruct (filter _ l) as [|a bad] eqn:F; [reflexivity|]. exfalso.
    assert (Ha : In a (a :: bad)) by now left. rewrite <- F in Ha. apply filter_In in Ha as [Ha Hi%existsb_eqb_In].
    exact (Hfresh a Ha Hi).
Qed.

(* the option as a user writes it: names and checker, each possibly padded with whitespace, joined by commas *)
Definition pad (p : string * string * string) : string := let '(w1, x, w2) := p in w1 ++ x ++ w2.
Definition core (p : string * string * string) : string := let '(_, x, _) := p in x.
Definition good_item (p : string * string * string) : Prop :=
  let '(w1, x, w2) := p in all_ws w1 = true /\ all_ws w2 = true /\ tight x /\ has_char ","%char x = false.

Lemma all_ws_has_char c w : is_ws c = false -> all_ws w = true -> has_char c w = false.
Proof.
  intros Hc. induction w as [|d r IH]; cbn [all_ws has_char]; [reflexivity|]. intros [Hd Hr]%andb_true_iff.
  rewrite (IH Hr). destruct (Ascii.eqb_spec d c) as [->|]; [congruence | reflexivity].
Qed.
Lemma has_char_app c a b : has_char c (a ++ b) = has_char c a || has_char c b.
Proof. induction a as [|d a IH]; cbn; [reflexivity|]. rewrite IH. now rewrite orb_assoc. Qed.

Theorem pytest_items_of_padded ps : ps <> [] -> Forall good_item ps ->
  pytest_items (join_on ","%char (map pad ps)) = map core ps.
Proof.
  intros Hne Hall. unfold pytest_items. rewrite split_join.
  - rewrite map_map. apply map_ext_Forall. eapply Forall_impl; [|exact Hall].
    intros [[w1 x] w2] [H1 [H2 [Ht _]]]. now apply pystrip_padded.
  - destruct ps; [congruence | discriminate].
  - apply Forall_map. eapply Forall_impl; [|exact Hall].
    intros [[w1 x] w2] [H1 [H2 [_ Hc]]]. cbn [pad]. now rewrite !has_char_app, Hc, !all_ws_has_char.
Qed.

Definition opt_list (o : option string) : list string := match o with None => [] | Some c => [c] end.

(* the specification: each cell is transformed by the checker of the latest magic before it, if any *)
Fixpoint spec_cells (ops : list iop) (cur : option string) : list (string * list string) :=
  match ops with
  | [] => []
  | IMagic c :: r => spec_cells r (Some c)
  | IAddOther _ :: r => spec_cells r cur
  | ICell n :: r => (n, opt_list cur) :: spec_cells r cur
  end.

(* what %jaxtyping.typechecker keeps: the transformers of other extensions *)
Definition nonjax (ts : list xf) := filter (fun t => negb (is_jax t)) ts.

Lemma cell_checkers_app a b : cell_checkers (a ++ b) = (cell_checkers a ++ cell_checkers b)%list.
Proof. unfold cell_checkers. apply flat_map_app. Qed.
Lemma cell_checkers_nonjax ts : cell_checkers (nonjax ts) = [].
Proof. induction ts as [|[c|i] r IH]; cbn; [reflexivity | exact IH | exact IH]. Qed.
Lemma cell_checkers_magic ts c : cell_checkers (magic ts c) = [c].
Proof. unfold magic. rewrite cell_checkers_app, cell_checkers_nonjax. reflexivity. Qed.

Theorem magic_run ops : forall s cur, cell_checkers (xfs s) = opt_list cur ->
  cells (irun ops s) = (cells s ++ spec_cells ops cur)%list /\
  cell_checkers (xfs (irun ops s)) = opt_list (latest_magic ops cur).
Proof.
  induction ops as [|o r IH]; intros s cur H; cbn [irun fold_left spec_cells latest_magic].
  - rewrite app_nil_r. split; [reflexivity | exact H].
  - destruct o as [c|i|n]; cbn [istep].
    + apply (IH (mkis (magic (xfs s) c) (cells s)) (Some c)). cbn [xfs]. apply cell_checkers_magic.
    + apply (IH (mkis (xfs s ++ [XOther i]) (cells s)) cur). cbn [xfs]. rewrite cell_checkers_app, H. cbn. now rewrite app_nil_r.
    + destruct (IH (mkis (xfs s) (cells s ++ [(n, cell_checkers (xfs s))])) cur H) as [H1 H2].
      split; [|exact H2]. unfold irun in H1. rewrite H1. cbn [cells]. rewrite H, <- app_assoc. reflexivity.
Qed.

(* the other extensions' transformers are never removed or reordered by the magic *)
Fixpoint others_added (ops : list iop) : list xf :=
  match ops with [] => [] | IAddOther i :: r => XOther i :: others_added r | _ :: r => others_added r end.
Lemma nonjax_app a b : nonjax (a ++ b) = (nonjax a ++ nonjax b)%list. Proof. apply filter_app. Qed.
Lemma nonjax_idem a : nonjax (nonjax a) = nonjax a.
Proof. unfold nonjax. induction a as [|[c|i] r IH]; cbn; [reflexivity | exact IH | now rewrite IH]. Qed.

Theorem magic_keeps_others ops : forall s, nonjax (xfs (irun ops s)) = (nonjax (xfs s) ++ others_added ops)%list.
Proof.
  induction ops as [|o r IH]; intros s; cbn [irun fold_left others_added]; [now rewrite app_nil_r|].
  destruct o as [c|i|n]; cbn [istep]; unfold irun in IH; rewrite IH; cbn [xfs].
  - unfold magic. rewrite nonjax_app. fold (nonjax (xfs s)). rewrite nonjax_idem. cbn. now rewrite app_nil_r.
  - rewrite nonjax_app. cbn. now rewrite <- app_assoc.
  - reflexivity.
Qed.

Theorem at_most_one_jax ops : length (cell_checkers (xfs (irun ops is0))) <= 1.
Proof. destruct (magic_run ops is0 None eq_refl) as [_ H]. rewrite H. destruct (latest_magic ops None); cbn; lia. Qed.
