(* LabelFacts.v -- the '?'-axis keys "(Leaf i in structure T) name" (C16). *)
From JT Require Import model.PyTreeCheck proofs.BaseFacts.
From Coq Require Import Lia DecimalString.

Definition nochar (c : ascii) (s : string) : Prop := mem_char c s = false.

Lemma all_chars_nochar p c s : all_chars p s = true -> p c = false -> nochar c s.
Proof.
  unfold nochar. intros H Hc. induction s as [|d s IH]; [reflexivity|]. cbn [all_chars mem_char] in *.
  apply andb_true_iff in H as [Hd Hs]. rewrite (IH Hs), orb_false_r. apply Ascii.eqb_neq. congruence.
Qed.

(* split at the first occurrence of a character that occurs in neither prefix *)
Lemma split_at_char c : forall a b x y,
  nochar c a -> nochar c b -> a ++ String c x = b ++ String c y -> a = b /\ x = y.
Proof.
  unfold nochar. induction a as [|d a IH]; intros [|e b] x y Ha Hb H; cbn in *.
  - now injection H.
  - injection H as -> _. now rewrite Ascii.eqb_refl in Hb.
  - injection H as -> _. now rewrite Ascii.eqb_refl in Ha.
  - injection H as -> H. apply orb_false_iff in Ha as [_ Ha], Hb as [_ Hb]. destruct (IH _ _ _ Ha Hb H) as [-> ->]. auto.
Qed.

Lemma uint_digits d : all_chars is_digit (NilEmpty.string_of_uint d) = true.
Proof. induction d; cbn; auto. Qed.

Lemma ns_digits i : all_chars is_digit (ns i) = true.
Proof.
  unfold ns, zs. destruct (Z.of_nat i) eqn:E; cbn.
  - reflexivity.
  - unfold NilZero.string_of_uint. destruct (Pos.to_uint p); try apply uint_digits. reflexivity.
  - lia.
Qed.

Lemma ns_no_space i : nochar " " (ns i).
Proof. exact (all_chars_nochar is_digit " " _ (ns_digits i) eq_refl). Qed.

Definition qkey (i : nat) (structure name : string) : string := label_of i structure ++ name.

Lemma qkey_shape i t n :
  qkey i t n = "(Leaf " ++ (ns i ++ String " " ("in structure " ++ (t ++ String ")" (String " " n)))).
Proof.
  unfold qkey, label_of. rewrite !append_assoc. reflexivity.
Qed.
