(* HookScopeFacts.v -- the hook instruments exactly the named packages, only while installed (C11). *)
From JT Require Import model.HookFront proofs.BaseFacts.
From Coq Require Import Lia.

Lemma starts_with_spec p : forall s, starts_with p s = true <-> exists r, s = p ++ r.
Proof.
  induction p as [|a p IH]; intros s; cbn.
  - split; eauto.
  - destruct s as [|b s]; [split; [discriminate | intros [r [=]]]|].
    rewrite andb_true_iff, Ascii.eqb_eq, IH. split.
    + intros [-> [r ->]]. eauto.
    + intros [r [= -> ->]]. eauto.
Qed.

Lemma is_list_prefix_spec p : forall l, is_list_prefix p l = true <-> exists r, l = (p ++ r)%list.
Proof.
  induction p as [|a p IH]; intros l; cbn.
  - split; eauto.
  - destruct l as [|b l]; [split; [discriminate | intros [r [=]]]|].
    rewrite andb_true_iff, String.eqb_eq, IH. split.
    + intros [-> [r ->]]. eauto.
    + intros [r [= -> ->]]. eauto.
Qed.

(* str.split(sep) as model/HookFront.v has it -- comps is the instance at "." (comps_split) -- and sep.join *)
Lemma split_aux_sep sep a : forall b cur,
  split_aux sep (a ++ String sep b) cur = (split_aux sep a cur ++ split_aux sep b "")%list.
Proof.
  induction a as [|c r IH]; intros b cur; cbn [append split_aux].
  - rewrite Ascii.eqb_refl. reflexivity.
  - destruct (Ascii.eqb c sep); [cbn [app]; f_equal; apply IH | apply IH].
Qed.

Lemma split_aux_nonempty sep s : forall cur, split_aux sep s cur <> [].
Proof. induction s as [|c r IH]; intros cur; cbn; [discriminate|]. destruct (Ascii.eqb c sep); [discriminate | apply IH]. Qed.

Lemma concat_cons sep x r : r <> [] -> String.concat sep (x :: r) = x ++ sep ++ String.concat sep r.
Proof. destruct r; [congruence | reflexivity]. Qed.

Lemma concat_split_aux sep s : forall cur, String.concat (String sep "") (split_aux sep s cur) = cur ++ s.
Proof.
  induction s as [|c s IH]; intros cur; cbn [split_aux].
  - cbn. now rewrite append_nil_r.
  - destruct (Ascii.eqb_spec c sep) as [->|].
    + rewrite concat_cons by apply split_aux_nonempty. now rewrite IH.
    + rewrite IH. now rewrite append_assoc.
Qed.

Lemma concat_split sep s : String.concat (String sep "") (split_on sep s) = s.
Proof. apply concat_split_aux. Qed.

Lemma concat_app sep xs : forall ys, xs <> [] -> ys <> [] ->
  String.concat sep (xs ++ ys) = String.concat sep xs ++ sep ++ String.concat sep ys.
Proof.
  induction xs as [|x r IH]; intros ys Hx Hy; [congruence|]. destruct r as [|x' r'].
  - now apply concat_cons.
  - specialize (IH ys ltac:(discriminate) Hy). cbn [app] in *.
    rewrite (concat_cons sep x (x' :: r' ++ ys)), IH, (concat_cons sep x (x' :: r')) by discriminate. now rewrite !append_assoc.
Qed.

Lemma comps_split s : comps s = split_on "." s.
Proof. unfold comps, split_on. generalize "". induction s as [|c s IH]; intros cur; cbn; [reflexivity|]. now rewrite !IH. Qed.

(* one name: equal, or beneath it -- as LISTS OF COMPONENTS, so `foobar` is not beneath `foo` *)
Theorem matches_name_spec m n : matches_name m n = true <-> is_list_prefix (comps n) (comps m) = true.
Proof.
  unfold matches_name. rewrite orb_true_iff, String.eqb_eq, starts_with_spec, is_list_prefix_spec, !comps_split. split.
  - intros [->|[r ->]].
    + exists []. now rewrite app_nil_r.
    + exists (split_on "." r). unfold split_on. rewrite append_assoc. apply split_aux_sep.
  - intros [rest H]. rewrite <- (concat_split "." m), H. destruct rest as [|x rest].
    + left. rewrite app_nil_r. apply concat_split.
    + right. exists (String.concat "." (x :: rest)).
      rewrite concat_app by (try discriminate; apply split_aux_nonempty). now rewrite concat_split, append_assoc.
Qed.

Example prefix_trap :
  map (should_instrument ["foo"; "bar.baz"]) ["foo"; "foo.a"; "foo.bar.qux"; "foobar"; "foo_bar"; "fo"; "bar"; "bar.baz"; "bar.bazz"; "bar.baz.x"; ""]
  = [true; true; true; false; false; false; false; true; false; true; false].
Proof. reflexivity. Qed.

(* a module, once loaded, is never touched again *)
Lemma import_one_keeps s m x t : aget (loaded s) x = Some t -> aget (loaded (import_one s m)) x = Some t.
Proof.
  intros H. unfold import_one. destruct (aget (loaded s) m) eqn:E; [assumption|]. cbn. rewrite aget_aset.
  destruct (String.eqb x m) eqn:Ex; [apply String.eqb_eq in Ex; subst; congruence | assumption].
Qed.

Lemma hstep_keeps s o x t : aget (loaded s) x = Some t -> aget (loaded (hstep s o)) x = Some t.
Proof.
  destruct o as [names chk|id|m]; cbn; auto.
  apply (fold_left_invariant (fun s => aget (loaded s) x = Some t)). intros s' a. apply import_one_keeps.
Qed.

(* uninstall removes that hook and nothing else; doing it twice is harmless *)
Definition ids_unique (hs : list hook) : Prop := NoDup (map h_id hs).

Lemma remove_first_id_spec id hs h : ids_unique hs -> (In h (remove_first_id id hs) <-> In h hs /\ h_id h <> id).
Proof.
  unfold ids_unique. induction hs as [|a r IH]; cbn; intros Hn; [tauto|]. inversion Hn as [|? ? Ha Hr]; subst.
  destruct (Nat.eqb_spec (h_id a) id) as [E|E].
  - split.
    + intros Hi. split; [now right|]. intros He. apply Ha. rewrite E, <- He. now apply in_map.
    + intros [[->|Hi] Hne]; [contradiction | exact Hi].
  - cbn. rewrite (IH Hr). split; [intros [<-|[? ?]]; auto | intros [[<-|?] ?]; auto].
Qed.

Lemma remove_absent id hs : (forall h, In h hs -> h_id h <> id) -> remove_first_id id hs = hs.
Proof.
  induction hs as [|a r IH]; intros H; cbn; [reflexivity|].
  destruct (Nat.eqb_spec (h_id a) id) as [E|E]; [exfalso; exact (H a (or_introl eq_refl) E)|].
  f_equal. apply IH. intros h Hh. apply H. now right.
Qed.

Theorem uninstall_idempotent id hs : ids_unique hs -> remove_first_id id (remove_first_id id hs) = remove_first_id id hs.
Proof. intros Hu. apply remove_absent. intros h Hh. now apply remove_first_id_spec in Hh. Qed.

Lemma remove_first_id_nodup id hs : ids_unique hs -> ids_unique (remove_first_id id hs).
Proof.
  unfold ids_unique. induction hs as [|a r IH]; cbn; intros Hn; [constructor|]. inversion Hn as [|? ? Ha Hr]; subst.
  destruct (Nat.eqb (h_id a) id); [assumption|]. cbn. constructor; [|now apply IH].
  intros Hi. apply Ha. apply in_map_iff in Hi as [h [He Hh]]. apply in_map_iff. exists h. now apply remove_first_id_spec in Hh.
Qed.

(* the identifiers of live hooks stay unique and below next_id *)
Definition hinv (s : hstate) : Prop := ids_unique (meta s) /\ forall h, In h (meta s) -> h_id h < next_id s.

Theorem hinv_step s o : hinv s -> hinv (hstep s o).
Proof.
  destruct o as [names chk|id|m]; cbn [hstep]; [| |apply fold_left_invariant; intros s' a; unfold import_one; now destruct (aget (loaded s') a)].
  - intros [Hu Hl]. split; cbn.
    + unfold ids_unique. cbn. constructor; [|exact Hu]. intros Hi. apply in_map_iff in Hi as [h [He Hh]]. specialize (Hl h Hh). lia.
    + intros h [<-|Hh]; cbn; [lia | specialize (Hl h Hh); lia].
  - intros [Hu Hl]. split; cbn; [now apply remove_first_id_nodup|]. intros h Hh. now apply Hl, (remove_first_id_spec id _ h Hu).
Qed.

Theorem hinv_run ops s : hinv s -> hinv (hrun ops s).
Proof. apply fold_left_invariant, hinv_step. Qed.

Lemma hinv0 : hinv hs0. Proof. split; [constructor | intros h []]. Qed.

Example machine_nonvacuous :
  show_loaded (hrun [Install ["foo"] (Some "A"); Install ["foo.bar"; "zed"] None; Import "foo.bar.qux"; Import "foobar.m"; Uninstall 1;
                     Import "zed"; Import "foo.a"; Uninstall 0; Uninstall 0; Import "foo_bar"] hs0)
  = "foo=hooked:A,foo.bar=hooked:None,foo.bar.qux=hooked:None,foobar=plain,foobar.m=plain,zed=plain,foo.a=hooked:A,foo_bar=plain".
Proof. vm_compute. reflexivity. Qed.
