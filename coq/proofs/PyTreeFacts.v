(* PyTreeFacts.v -- the PyTree check of model/PyTreeCheck.v: what every check preserves of the store (one induction over leaf
   types, leafmatch_keeps), hence that it touches the top context only (C08), that a check which does not accept restores the
   whole stack (C04, C08), and, for the body of a PyTree check, that the flatten mode and the '?'-leaf position do not
   outlive it (body_flat, body_path: the cases that props/C12.v needs of leafmatch_keeps). *)
From JT Require Import model.PyTreeCheck proofs.TreeFacts proofs.CheckFacts.

Section LInd.
  Variable P : leafty -> Prop.
  Hypotheses (Hi : P LInt) (Hs : P LStr) (Ha : P LAny)
             (Ht : forall ls, Forall P ls -> P (LTuple ls)) (Hu : forall ls, Forall P ls -> P (LUnion ls))
             (Harr : forall a, P (LArr a)) (Hb : P LPyTreeBare) (Hp : forall l s, P l -> P (LPyTree l s)).
  Fixpoint leafty_ind' (l : leafty) : P l :=
    let go := fix go (ls : list leafty) : Forall P ls :=
                match ls with [] => Forall_nil _ | x :: r => Forall_cons _ (leafty_ind' x) (go r) end in
    match l with
    | LInt => Hi | LStr => Hs | LAny => Ha
    | LTuple ls => Ht ls (go ls) | LUnion ls => Hu ls (go ls)
    | LArr a => Harr a | LPyTreeBare => Hb | LPyTree l s => Hp l s (leafty_ind' l)
    end.
End LInd.

(* the frames below the top one, and whether there is a context at all *)
Definition same_below (s s' : pstore) : Prop :=
  tl (ps_stack s') = tl (ps_stack s) /\ (ps_stack s = [] <-> ps_stack s' = []).

Lemma same_below_refl s : same_below s s. Proof. split; [reflexivity | tauto]. Qed.
Lemma same_below_set_top s0 s f : same_below s0 s -> same_below s0 (set_top s f).
Proof.
  unfold same_below, set_top. destruct (ps_stack s) eqn:E; [rewrite E; tauto|].
  cbn. intros [Ht He]. split; [exact Ht|]. rewrite He. split; discriminate.
Qed.

Lemma set_top_restores s s2 : same_below s s2 -> ps_stack (set_top s2 (top_frame s)) = ps_stack s.
Proof.
  unfold same_below, set_top, top_frame. intros [Ht He]. destruct (ps_stack s2) as [|f2 r2] eqn:E2.
  - rewrite E2. symmetry. now apply He.
  - cbn in *. destruct (ps_stack s); [discriminate (proj1 He eq_refl) | now subst].
Qed.

Lemma set_top_top_frame s : set_top s (top_frame s) = s.
Proof. destruct s as [[|f r] p b]; reflexivity. Qed.

Lemma set_top_flat s f : ps_flat (set_top s f) = ps_flat s.
Proof. unfold set_top. destruct (ps_stack s); reflexivity. Qed.
Lemma set_top_path s f : ps_path (set_top s f) = ps_path s.
Proof. unfold set_top. destruct (ps_stack s); reflexivity. Qed.

(* the structure phase of a PyTree check, on the structure names of the top frame *)
Definition struct_res (sopt : option string) (sx : tdef) (tm : alist tdef) : stres :=
  match sopt with None => StOk tm | Some str => structure_step (read_structure str) sx tm end.

Section F.
Variable st : symtab.

(* the local recursions of flatten_with and leafmatch are the named ones, by conversion *)
Lemma flatten_with_eq isleaf x s :
  flatten_with isleaf x s =
  match isleaf x s with
  | (Raise e, s1) => (None, s1, Some e)
  | (Acc, s1) => (Some ([x], star), s1, None)
  | (Rej, s1) =>
      match x with
      | Leaf _ => (Some ([x], star), s1, None)
      | Node k cs =>
          let '(r, s2, e) := flatten_list isleaf cs s1 in
          match r with
          | Some (lvs, ds) => (Some (lvs, Node k ds), s2, e)
          | None => (None, s2, e)
          end
      end
  end.
Proof. destruct x; reflexivity. Qed.

Lemma leafmatch_tuple ls x s :
  leafmatch st (LTuple ls) x s =
  match x with Node KTuple cs | Node (KNamed _) cs => tuple_match st ls cs s | _ => (Rej, s) end.
Proof. reflexivity. Qed.

Lemma leafmatch_union ls x s : leafmatch st (LUnion ls) x s = union_match st x ls s.
Proof. reflexivity. Qed.

Lemma leafmatch_pytree l sopt x s :
  leafmatch st (LPyTree l sopt) x s =
  match x with Node KNone [] => (Acc, s) | _ => pytree_body st l sopt x s end.
Proof.
  (* cbn folds the recursive calls back into `leafmatch st`; left to reflexivity, each of them (two in each of the seven
     copies of the body, times seven leaf types) is the fixpoint's whole body compared with itself *)
  cbn [leafmatch]. reflexivity.
Qed.

Lemma leafmatch_pytree_cases l sopt x s :
  x = Node KNone [] /\ leafmatch st (LPyTree l sopt) x s = (Acc, s) \/
  leafmatch st (LPyTree l sopt) x s = pytree_body st l sopt x s.
Proof. rewrite leafmatch_pytree. destruct x as [|[] []]; auto. Qed.

(* an array check is the check of model/Check.v on the memo of the top frame, whose outcome replaces that memo; outside every
   context top_frame is the throw-away empty frame and set_top does nothing *)
Lemma arr_check_eq a v s :
  arr_check st a v s =
  let '(vd, s') := instancecheck (ps_flat s) (ps_path s) st a v [fst (top_frame s)] in
  (vd, set_top s (get_memo s', snd (top_frame s))).
Proof.
  unfold arr_check, set_top, top_frame. destruct (ps_stack s) as [|[m t] r]; [|reflexivity].
  pose proof (instancecheck_verdict (ps_path s) st (ps_flat s) a v []) as E. cbn [fst get_memo] in *.
  destruct (instancecheck _ _ st a v []), (instancecheck _ _ st a v [empty_memo]). cbn [fst] in E. now subst.
Qed.

Lemma arr_check_not_acc_restores a v s vd s' :
  arr_check st a v s = (vd, s') -> vd <> Acc -> ps_stack s' = ps_stack s.
Proof.
  rewrite arr_check_eq. destruct (instancecheck _ _ st a v _) as [vd1 s1] eqn:Ei. intros [= <- <-] Hv.
  rewrite (instancecheck_not_acc_restores _ _ _ _ _ _ _ _ Ei Hv). cbn [get_memo].
  now rewrite <- surjective_pairing, set_top_top_frame.
Qed.

(* pytree_body read backwards: after the flatten phase either it stopped before the leaf loop (flattening raised, the
   structure does not fit) and put the snapshot back, or the leaf loop ran and the snapshot is put back unless it accepted *)
Lemma pytree_body_cases l sopt x s vd s' :
  pytree_body st l sopt x s = (vd, s') ->
  exists fl s1 e, flatten_with (flat_fn st l) x (with_flat s true) = (fl, s1, e) /\
  let s2 := with_flat s1 false in
  vd <> Acc /\ s' = set_top s2 (top_frame s) \/
  exists lv sx tm' s4,
    fl = Some (lv, sx) /\ struct_res sopt sx (snd (top_frame s2)) = StOk tm' /\
    leaf_loop (check_fn st l) sopt lv 0 (set_top s2 (fst (top_frame s2), tm')) = (vd, s4) /\
    s' = match vd with Acc => with_path s4 None | _ => set_top (with_path s4 None) (top_frame s) end.
Proof.
  unfold pytree_body, struct_res. intros H.
  destruct (flatten_with (flat_fn st l) x (with_flat s true)) as [[fl s1] e]. exists fl, s1, e. split; [reflexivity|].
  destruct fl as [[lv sx]|]; [|left; inversion H; split; [discriminate | reflexivity]].
  destruct (top_frame (with_flat s1 false)) as [m tm]. cbn [fst snd] in *.
  destruct (match sopt with None => StOk tm | Some str => structure_step (read_structure str) sx tm end) as [tm'| |] eqn:Es;
    try (left; inversion H; split; [discriminate | reflexivity]).
  destruct (leaf_loop (check_fn st l) sopt lv 0 (set_top (with_flat s1 false) (m, tm'))) as [vd4 s4] eqn:El.
  right. exists lv, sx, tm', s4. destruct vd4; inversion H; subst; auto.
Qed.

(* ... and forwards, along the path that reaches the leaf loop *)
Lemma pytree_body_run l sopt x s lv sx s1 e tm' vd s4 :
  flatten_with (flat_fn st l) x (with_flat s true) = (Some (lv, sx), s1, e) ->
  let s2 := with_flat s1 false in
  struct_res sopt sx (snd (top_frame s2)) = StOk tm' ->
  leaf_loop (check_fn st l) sopt lv 0 (set_top s2 (fst (top_frame s2), tm')) = (vd, s4) ->
  pytree_body st l sopt x s =
  (vd, match vd with Acc => with_path s4 None | _ => set_top (with_path s4 None) (top_frame s) end).
Proof.
  unfold pytree_body, struct_res. intros ->. destruct (top_frame (with_flat s1 false)) as [m tm]. cbn [fst snd].
  intros -> ->. destruct vd; reflexivity.
Qed.

Definition Inv (P : pstore -> Prop) (f : ptree -> pstore -> verdict * pstore) : Prop :=
  forall x s vd s', f x s = (vd, s') -> P s -> P s'.

Section Keep.
Variable P : pstore -> Prop.
Hypothesis P_set_top : forall s f, P s -> P (set_top s f).

Lemma arr_check_keeps a v s vd s' : arr_check st a v s = (vd, s') -> P s -> P s'.
Proof. rewrite arr_check_eq. destruct (instancecheck _ _ st a v _) as [vd0 s0]. intros [= _ <-]. auto. Qed.

Lemma flatten_list_keeps isleaf cs :
  Forall (fun c => forall s r s' e, flatten_with isleaf c s = (r, s', e) -> P s -> P s') cs ->
  forall s r s' e, flatten_list isleaf cs s = (r, s', e) -> P s -> P s'.
Proof.
  induction 1 as [|c rs Hc _ IH]; intros s r s' e H Hp; cbn [flatten_list] in H.
  - congruence.
  - destruct (flatten_with isleaf c s) as [[rc sc] ec] eqn:Ec. apply (Hc _ _ _ _ Ec) in Hp.
    destruct rc as [[lv d]|]; [|congruence].
    destruct (flatten_list isleaf rs sc) as [[rr sr] er] eqn:Er. apply (IH _ _ _ _ Er) in Hp.
    destruct rr as [[lvs ds]|]; congruence.
Qed.

Lemma flatten_keeps isleaf : Inv P isleaf -> forall x s r s' e, flatten_with isleaf x s = (r, s', e) -> P s -> P s'.
Proof.
  intros HF. induction x as [a|k cs IH] using tree_ind'; intros s r s' e H Hp; rewrite flatten_with_eq in H;
    destruct (isleaf _ s) as [vd s1] eqn:E; apply (HF _ _ _ _ E) in Hp; destruct vd; try congruence.
  destruct (flatten_list isleaf cs s1) as [[r0 s2] e0] eqn:Eg. apply (flatten_list_keeps _ _ IH _ _ _ _ Eg) in Hp.
  destruct r0 as [[lvs ds]|]; congruence.
Qed.

Lemma leaf_loop_keeps ischeck sopt : (forall s p, P s -> P (with_path s p)) -> Inv P ischeck ->
  forall lv i s vd s', leaf_loop ischeck sopt lv i s = (vd, s') -> P s -> P s'.
Proof.
  intros Pp HF. induction lv as [|x r IH]; intros i s vd s' H Hp; cbn [leaf_loop] in H; [congruence|].
  (* the four cases of (structure, label already set): an AnnotationError, else the same step from a labelled store *)
  destruct sopt as [str|], (ps_path s); try congruence;
    destruct (ischeck x _) as [v1 s1] eqn:E; assert (B : P s1) by (eapply HF; [exact E | auto]);
    destruct v1; try congruence; eauto.
Qed.

Lemma tuple_match_keeps ls : Forall (fun l => Inv P (leafmatch st l)) ls ->
  forall cs s vd s', tuple_match st ls cs s = (vd, s') -> P s -> P s'.
Proof.
  induction 1 as [|l1 lr Hl _ IH]; intros [|c cr] s vd s' H Hp; cbn [tuple_match] in H; try congruence.
  destruct (leafmatch st l1 c s) as [v1 s1] eqn:E. apply (Hl _ _ _ _ E) in Hp.
  destruct v1; try congruence. eauto.
Qed.

Lemma union_match_keeps x ls : Forall (fun l => Inv P (leafmatch st l)) ls ->
  forall s vd s', union_match st x ls s = (vd, s') -> P s -> P s'.
Proof.
  induction 1 as [|l1 lr Hl _ IH]; intros s vd s' H Hp; cbn [union_match] in H; [congruence|].
  destruct (leafmatch st l1 x s) as [v1 s1] eqn:E. apply (Hl _ _ _ _ E) in Hp.
  destruct v1; try congruence. eauto.
Qed.

Lemma flat_check_keeps l : Inv P (leafmatch st l) -> Inv P (flat_fn st l) /\ Inv P (check_fn st l).
Proof. intros H. split; destruct l; try exact H; intros x s vd s' E Hp; inversion E; subst; exact Hp. Qed.

(* what is left to show for each P: the PyTree body, given the leaf functions *)
Theorem leafmatch_keeps :
  (forall l sopt, Inv P (flat_fn st l) -> Inv P (check_fn st l) -> Inv P (pytree_body st l sopt)) ->
  forall l, Inv P (leafmatch st l).
Proof.
  intros P_body. induction l as [| | |ls IH|ls IH|a| |l sopt IH] using leafty_ind'; intros x s vd s' H Hp.
  1-3, 7: cbn in H; congruence.
  - rewrite leafmatch_tuple in H. destruct x as [|[] cs]; try congruence; eapply tuple_match_keeps; eauto.
  - rewrite leafmatch_union in H. eapply union_match_keeps; eauto.
  - cbn [leafmatch] in H. destruct x as [[]|]; eapply arr_check_keeps; eauto.
  - destruct (leafmatch_pytree_cases l sopt x s) as [[_ E]|E]; rewrite E in H; [congruence|].
    destruct (flat_check_keeps l IH). eapply P_body; eauto.
Qed.
End Keep.

(* `same_below s0` is such a P.  The store of a PyTree body before the snapshot is put back: *)
Lemma body_below s0 l sopt x s vd s' :
  Inv (same_below s0) (flat_fn st l) -> Inv (same_below s0) (check_fn st l) ->
  pytree_body st l sopt x s = (vd, s') -> same_below s0 s ->
  exists s5, same_below s0 s5 /\ s' = match vd with Acc => s5 | _ => set_top s5 (top_frame s) end.
Proof.
  intros Ff Fc H Hp. destruct (pytree_body_cases _ _ _ _ _ _ H) as (fl & s1 & e & Ef & Hc).
  (* with_flat and with_path do not touch the stack: they keep same_below s0 by conversion *)
  assert (P2 : same_below s0 (with_flat s1 false)) by exact (flatten_keeps (same_below s0) _ Ff _ _ _ _ _ Ef Hp).
  destruct Hc as [[Hv ->] | (lv & sx & tm' & s4 & _ & _ & El & ->)].
  - exists (with_flat s1 false). split; [exact P2|]. now destruct vd.
  - exists (with_path s4 None). split; [|reflexivity].
    exact (leaf_loop_keeps (same_below s0) _ _ (fun _ _ B => B) Fc _ _ _ _ _ El (same_below_set_top _ _ _ P2)).
Qed.

Lemma leafmatch_below s0 l : Inv (same_below s0) (leafmatch st l).
Proof.
  apply leafmatch_keeps; [apply same_below_set_top|]. intros l0 sopt Ff Fc x s vd s' H Hp.
  destruct (body_below _ _ _ _ _ _ _ Ff Fc H Hp) as (s5 & B & ->). destruct vd; auto using same_below_set_top.
Qed.

Lemma leafmatch_frame l x s vd s' : leafmatch st l x s = (vd, s') -> same_below s s'.
Proof. intros H. exact (leafmatch_below s l x s vd s' H (same_below_refl s)). Qed.

(* C04 / C08: a PyTree check that does not accept leaves the whole context stack as it was *)
Theorem pytree_reject_restores l sopt x s vd s' :
  leafmatch st (LPyTree l sopt) x s = (vd, s') -> vd <> Acc -> ps_stack s' = ps_stack s.
Proof.
  intros H Hv. destruct (leafmatch_pytree_cases l sopt x s) as [[_ E]|E]; rewrite E in H; [congruence|].
  destruct (flat_check_keeps _ l (leafmatch_below s l)) as [Ff Fc].
  destruct (body_below _ _ _ _ _ _ _ Ff Fc H (same_below_refl s)) as (s5 & B & ->).
  destruct vd; [congruence | |]; apply set_top_restores, B.
Qed.

(* the body leaves the flatten mode off whatever happened, given that the leaf checks of its loop do *)
Lemma body_flat l sopt :
  Inv (fun s => ps_flat s = false) (check_fn st l) -> Inv (fun s => ps_flat s = false) (pytree_body st l sopt).
Proof.
  intros Fc x s vd s' H _. destruct (pytree_body_cases _ _ _ _ _ _ H) as (fl & s1 & e & _ & [[_ ->] | (lv & sx & tm' & s4 & _ & _ & El & ->)]).
  - apply set_top_flat.
  - apply (leaf_loop_keeps (fun s => ps_flat s = false)) in El; [| auto | exact Fc | apply set_top_flat].
    destruct vd; rewrite ?set_top_flat; exact El.
Qed.

(* the body clears the leaf position after its loop; before the loop only flattening runs *)
Lemma body_path l sopt :
  Inv (fun s => ps_path s = None) (flat_fn st l) -> Inv (fun s => ps_path s = None) (pytree_body st l sopt).
Proof.
  intros Ff x s vd s' H Hp. destruct (pytree_body_cases _ _ _ _ _ _ H) as (fl & s1 & e & Ef & [[_ ->] | (lv & sx & tm' & s4 & _ & _ & _ & ->)]).
  - rewrite set_top_path. exact (flatten_keeps (fun s => ps_path s = None) _ Ff _ _ _ _ _ Ef Hp).
  - destruct vd; rewrite ?set_top_path; reflexivity.
Qed.

End F.
