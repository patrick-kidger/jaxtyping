(* TreeFacts.v -- the structure algebra of PyTree annotations (C09): treedef equality is identity, composition is associative
   and the fold of the implementation is the right-nested composition, is_prefix and suffix_check decide the documented
   relations. *)
From JT Require Import model.Tree proofs.BaseFacts.

Section Ind.
  Variables (A : Type) (P : tree A -> Prop).
  Hypothesis HL : forall a, P (Leaf a).
  Hypothesis HN : forall k cs, Forall P cs -> P (Node k cs).
  Fixpoint tree_ind' (t : tree A) : P t :=
    match t with
    | Leaf a => HL a
    | Node k cs => HN k cs ((fix go (l : list (tree A)) : Forall P l :=
                  match l with [] => Forall_nil _ | x :: r => Forall_cons _ (tree_ind' x) (go r) end) cs)
    end.
End Ind.

(* testing every piece of a greedy top-down cut (Tree.cut, PurePyTreeFacts.leaves_of), as a recursive test *)
Lemma forallb_greedy_cut {A} (p : tree A -> bool) (cutf : tree A -> list (tree A)) :
  (forall x, cutf x = if p x then [x] else match x with Leaf _ => [x] | Node _ cs => flat_map cutf cs end) ->
  forall x, forallb p (cutf x) = p x || match x with Leaf _ => false | Node _ cs => forallb (fun c => forallb p (cutf c)) cs end.
Proof.
  intros Hcut x. rewrite Hcut. destruct (p x) eqn:E; [cbn [forallb]; now rewrite E|].
  destruct x; [cbn [forallb]; now rewrite E | apply forallb_flat_map].
Qed.

Lemma strlist_eqb_eq a b : strlist_eqb a b = true <-> a = b.
Proof. apply all2b_eqb_eq. Qed.

Lemma kind_eqb_eq a b : kind_eqb a b = true <-> a = b.
Proof.
  destruct a, b; cbn; rewrite ?strlist_eqb_eq, ?String.eqb_eq; split; congruence.
Qed.

Lemma tdef_eqb_node k cs k' cs' : tdef_eqb (Node k cs) (Node k' cs') = kind_eqb k k' && all2b tdef_eqb cs cs'.
Proof. reflexivity. Qed.

Lemma is_prefix_node k cs k' cs' : is_prefix (Node k cs) (Node k' cs') = kind_eqb k k' && all2b is_prefix cs cs'.
Proof. reflexivity. Qed.

Lemma tdef_eqb_eq : forall a b, tdef_eqb a b = true <-> a = b.
Proof.
  induction a as [[]|k cs IH] using tree_ind'; intros [[]|k' cs']; try (cbn; split; congruence).
  rewrite tdef_eqb_node, andb_true_iff, kind_eqb_eq, (all2b_Forall2 _ eq cs IH), Forall2_eq.
  split; [intros [-> ->]; reflexivity | intros E; inversion E; auto].
Qed.

Lemma tdef_eqb_refl t : tdef_eqb t t = true. Proof. now apply tdef_eqb_eq. Qed.

Lemma compose_star_l t : compose star t = t. Proof. reflexivity. Qed.

Lemma compose_star_r : forall t, compose t star = t.
Proof. induction t as [[]|k cs IH] using tree_ind'; cbn [compose]; [reflexivity|].
  f_equal. rewrite <- (map_id cs) at 2. apply map_ext_Forall, IH. Qed.

Theorem compose_assoc : forall a b c, compose (compose a b) c = compose a (compose b c).
Proof.
  induction a as [u|k cs IH] using tree_ind'; intros b c; cbn [compose]; [reflexivity|].
  rewrite map_map. f_equal. apply map_ext_Forall. revert IH. apply Forall_impl. auto.
Qed.

(* the fold of the implementation builds S1 o (S2 o (... o Sn)) *)
Theorem compose_impl_spec pieces : compose_impl pieces = fold_right compose star pieces.
Proof.
  assert (H : forall acc, fold_left compose pieces acc = compose acc (fold_right compose star pieces)).
  { induction pieces as [|p r IH]; intros acc; cbn [fold_left fold_right].
    - now rewrite compose_star_r.
    - now rewrite IH, compose_assoc. }
  apply H.
Qed.

(* x is p with every leaf of p replaced by some tree *)
Inductive Prefix : tdef -> tdef -> Prop :=
| Prefix_leaf : forall u x, Prefix (Leaf u) x
| Prefix_node : forall k cs cs', Forall2 Prefix cs cs' -> Prefix (Node k cs) (Node k cs').

Theorem is_prefix_exact : forall p x, is_prefix p x = true <-> Prefix p x.
Proof.
  induction p as [u|k cs IH] using tree_ind'; intros x.
  - split; [constructor | reflexivity].
  - destruct x as [u|k' cs']; [split; [discriminate | intros H; inversion H]|].
    rewrite is_prefix_node, andb_true_iff, kind_eqb_eq, (all2b_Forall2 _ Prefix cs IH).
    split; [intros [-> ?]; now constructor | intros H; inversion H; auto].
Qed.

Theorem compose_has_prefix : forall u t, Prefix u (compose u t).
Proof. induction u as [u|k cs IH] using tree_ind'; intros t; cbn; constructor.
  induction IH as [|c r Hc _ IHr]; cbn; constructor; auto. Qed.

Lemma cut_unfold t x :
  cut t x = if tdef_eqb x t then [x] else match x with Leaf _ => [x] | Node k cs => flat_map (cut t) cs end.
Proof. destruct x; reflexivity. Qed.

Lemma suffix_check_eq t x :
  suffix_check t x = tdef_eqb x t || match x with Leaf _ => false | Node _ cs => forallb (suffix_check t) cs end.
Proof. exact (forallb_greedy_cut (fun y => tdef_eqb y t) (cut t) (cut_unfold t) x). Qed.

Lemma suffix_sound t : forall x, suffix_check t x = true -> exists u, x = compose u t.
Proof.
  induction x as [a|k cs IH] using tree_ind'; rewrite suffix_check_eq; intros [E|H]%orb_true_iff.
  1, 3: exists star; now apply tdef_eqb_eq in E.
  - discriminate.
  - apply (Forall_guard _ _ _ IH), Forall_image in H as [us ->]. now exists (Node k us).
Qed.

Lemma suffix_complete t : forall u, suffix_check t (compose u t) = true.
Proof.
  induction u as [a|k us IH] using tree_ind'; rewrite suffix_check_eq; apply orb_true_iff.
  - left. apply tdef_eqb_refl.
  - right. cbn [compose]. rewrite forallb_forall. intros y (u & <- & Hu)%in_map_iff. rewrite Forall_forall in IH. auto.
Qed.

Theorem suffix_exact t x : suffix_check t x = true <-> exists u, x = compose u t.
Proof. split; [apply suffix_sound | intros [u ->]; apply suffix_complete]. Qed.

(* corner cases the tests never visit *)
Example suffix_corner_cases :
  let none := Node KNone [] in let unit_ := Node KTuple [] in let pair := Node KTuple [star; star] in
  suffix_check star (Node KTuple [none; unit_]) = true /\            (* T = a bare leaf: leaf-less x qualifies *)
  suffix_check pair (Node (KDict ["b"; "w"]) [none; pair]) = true /\   (* None next to copies of T is ignored *)
  suffix_check pair (Node KTuple [pair; star]) = false /\
  suffix_check none (Node KTuple [none; unit_]) = true /\        (* = (leaf, ()) o None *)
  suffix_check none (Node KTuple [none; none]) = true /\
  is_prefix pair (Node KTuple [none; Node KList [star]]) = true /\ is_prefix pair (Node KList [star; star]) = false.
Proof. vm_compute. repeat split. Qed.
