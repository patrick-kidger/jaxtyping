(* SigFacts.v -- the parameter list written for the synthesised def (model/Sig.v: pieces_of_sig) and its reading back by
   sig_of_pieces, block by block (positional, from `*` on, `**`): the lemmas of C07_signature_roundtrip. *)
From JT Require Import model.Sig.
From Coq Require Import Lia.
Open Scope list_scope.

Lemma of_kind_all k k' l : all_kind k' l -> of_kind k l = if pkind_eqb k' k then l else [].
Proof.
  unfold all_kind, of_kind. induction 1 as [|p l Hp _ IH]; cbn; [now destruct (pkind_eqb k' k)|].
  rewrite Hp, IH. now destruct (pkind_eqb k' k).
Qed.

Lemma of_kind_app k a b : of_kind k (a ++ b) = of_kind k a ++ of_kind k b.
Proof. apply filter_app. Qed.

Lemma of_kind_blocks k pos pk vp ko vk :
  all_kind PO pos -> all_kind PK pk -> all_kind VP vp -> all_kind KO ko -> all_kind VK vk ->
  of_kind k (pos ++ pk ++ vp ++ ko ++ vk) = match k with PO => pos | PK => pk | VP => vp | KO => ko | VK => vk end.
Proof.
  intros H1 H2 H3 H4 H5.
  rewrite !of_kind_app, (of_kind_all k _ _ H1), (of_kind_all k _ _ H2), (of_kind_all k _ _ H3), (of_kind_all k _ _ H4), (of_kind_all k _ _ H5).
  destruct k; cbn; now rewrite ?app_nil_r.
Qed.

(* *args and **kwargs: at most one, without default *)
Lemma at_most_one k l :
  all_kind k l -> (length l <= 1)%nat -> Forall (fun p => p_dflt p = false) l -> l = [] \/ exists n, l = [mkparam n k false].
Proof.
  destruct l as [|[n k' d] [|]]; cbn; intros Hk Hl Hd; [auto | right | lia].
  inversion Hk. inversion Hd. cbn in *. subst. eauto.
Qed.

Lemma take_params_map l rest :
  match rest with PcParam _ _ :: _ => False | _ => True end ->
  take_params (map pc l ++ rest) = (map (fun p => (p_name p, p_dflt p)) l, rest).
Proof.
  intros Hr. induction l as [|p l IH]; cbn.
  - destruct rest as [|[] r]; try reflexivity. contradiction.
  - now rewrite IH.
Qed.

Lemma mk_back k l : all_kind k l -> map (mk k) (map (fun p => (p_name p, p_dflt p)) l) = l.
Proof. induction 1 as [|p l Hp _ IH]; cbn; [reflexivity|]. rewrite IH. f_equal. destruct p; cbn in *. now subst. Qed.

(* sig_of_pieces in its three steps: up to the end of the positional parameters, from `*` on, and `**` *)
Definition read_front (pcs : list piece) : list param * list piece :=
  let '(run1, rest1) := take_params pcs in
  match rest1 with
  | PcSlash :: r => let '(run2, r') := take_params r in (map (mk PO) run1 ++ map (mk PK) run2, r')
  | _ => (map (mk PK) run1, rest1)
  end.

Definition read_mid (rest2 : list piece) : list param * list piece :=
  match rest2 with
  | PcStarArgs n :: r => let '(run3, r') := take_params r in (mkparam n VP false :: map (mk KO) run3, r')
  | PcStar :: r => let '(run3, r') := take_params r in (map (mk KO) run3, r')
  | _ => ([], rest2)
  end.

Definition read_end (front mid : list param) (rest3 : list piece) : option (list param) :=
  match rest3 with
  | [] => Some (front ++ mid)
  | [PcStarStar n] => Some (front ++ mid ++ [mkparam n VK false])
  | _ => None
  end.

Lemma sig_of_pieces_steps pcs :
  sig_of_pieces pcs =
  let '(front, rest2) := read_front pcs in let '(mid, rest3) := read_mid rest2 in read_end front mid rest3.
Proof. unfold sig_of_pieces, read_front. destruct (take_params pcs) as [run1 [|[] r]]; reflexivity. Qed.

Lemma read_front_ok pos pk rest :
  all_kind PO pos -> all_kind PK pk -> match rest with PcParam _ _ :: _ | PcSlash :: _ => False | _ => True end ->
  read_front ((if nonempty pos then map pc pos ++ [PcSlash] else []) ++ map pc pk ++ rest) = (pos ++ pk, rest).
Proof.
  intros H1 H2 Hr. unfold read_front.
  assert (Hp : take_params (map pc pk ++ rest) = (map (fun p => (p_name p, p_dflt p)) pk, rest))
    by (apply take_params_map; destruct rest as [|[]]; auto).
  destruct pos as [|p0 pos]; cbn [nonempty app].
  - rewrite Hp, (mk_back PK _ H2). destruct rest as [|[]]; try reflexivity; contradiction.
  - rewrite <- app_assoc, (take_params_map (p0 :: pos)) by exact I.
    cbn [app]. now rewrite Hp, (mk_back PO _ H1), (mk_back PK _ H2).
Qed.

(* `*args`, a bare `*` before keyword-only parameters, or neither *)
Lemma read_mid_ok vp ko kw :
  all_kind VP vp -> all_kind KO ko -> (length vp <= 1)%nat -> Forall (fun p => p_dflt p = false) vp ->
  match kw with PcParam _ _ :: _ | PcStar :: _ | PcStarArgs _ :: _ => False | _ => True end ->
  read_mid ((match vp with [p] => [PcStarArgs (p_name p)] | _ => if nonempty ko then [PcStar] else [] end) ++ map pc ko ++ kw) =
  (vp ++ ko, kw).
Proof.
  intros H3 H4 L3 D3 Hkw. unfold read_mid.
  assert (Hk : take_params (map pc ko ++ kw) = (map (fun p => (p_name p, p_dflt p)) ko, kw))
    by (apply take_params_map; destruct kw as [|[]]; auto).
  destruct (at_most_one _ _ H3 L3 D3) as [->|[n ->]]; [destruct ko as [|k0 ko]|]; cbn [nonempty app].
  2, 3: now rewrite Hk, (mk_back KO _ H4).
  destruct kw as [|[]]; try reflexivity; contradiction.
Qed.

Lemma read_end_ok front mid vk :
  all_kind VK vk -> (length vk <= 1)%nat -> Forall (fun p => p_dflt p = false) vk ->
  read_end front mid (match vk with [p] => [PcStarStar (p_name p)] | _ => [] end) = Some (front ++ mid ++ vk).
Proof. intros H5 L5 D5. destruct (at_most_one _ _ H5 L5 D5) as [->|[m ->]]; cbn; now rewrite ?app_nil_r. Qed.

Example pieces_examples :
  pieces_of_sig [mkparam "x" PO false; mkparam "y" PK true; mkparam "k" KO false] = [PcParam "x" false; PcSlash; PcParam "y" true; PcStar; PcParam "k" false] /\
  pieces_of_sig [mkparam "a" PK false; mkparam "args" VP false; mkparam "k" KO true; mkparam "kw" VK false] = [PcParam "a" false; PcStarArgs "args"; PcParam "k" true; PcStarStar "kw"].
Proof. split; reflexivity. Qed.
