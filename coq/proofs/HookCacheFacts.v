(* HookCacheFacts.v -- cached bytecode never makes a module run with the wrong instrumentation (C18). *)
From JT Require Import model.HookCache proofs.BaseFacts.

Definition kind_of_tag (t : ctag) : ckind := match t with Plain => Uninstr | J h => Instr h end.

(* the cache invariant: the tag determines what was compiled *)
Definition cinv (c : cache) : Prop := forall m t v k, cget c m t = Some (v, k) -> k = kind_of_tag t.

Lemma ctag_eqb_eq a b : ctag_eqb a b = true <-> a = b.
Proof. destruct a, b; cbn; try (split; congruence). rewrite String.eqb_eq. split; congruence. Qed.

Lemma cinv_nil : cinv []. Proof. intros m t v k H. discriminate. Qed.

Lemma cinv_cset c m t v : cinv c -> cinv (cset c m t (v, kind_of_tag t)).
Proof.
  intros Hc m' t' v' k'. unfold cset. cbn. destruct (String.eqb m' m && ctag_eqb t' t) eqn:E.
  - apply andb_true_iff in E as [_ ->%ctag_eqb_eq]. now intros [= _ <-].
  - apply Hc.
Qed.

Definition all_correct (r : runcfg) (d : list (string * (ckind * nat))) : Prop :=
  forall x, In x d -> snd x = expected r (fst x).

(* a module's own cache access, as both loaders perform it: a hit validated by the source version, else compile and store *)
Lemma access_correct c m t fresh v0 ran c' : cinv c -> fresh = kind_of_tag t ->
  match cget c m t with
  | Some (v, k) => if Nat.eqb v v0 then ((k, v), c) else ((fresh, v0), cset c m t (v0, fresh))
  | None => ((fresh, v0), cset c m t (v0, fresh))
  end = (ran, c') ->
  cinv c' /\ ran = (fresh, v0).
Proof.
  intros Hc ->. destruct (cget c m t) as [[v k]|] eqn:Eg; [destruct (Nat.eqb_spec v v0) as [->|]|]; intros [= <- <-].
  - now rewrite (Hc _ _ _ _ Eg).
  - split; [now apply cinv_cset | reflexivity].
  - split; [now apply cinv_cset | reflexivity].
Qed.

Section GetCode.
Variable r : runcfg.

Definition run_ok (s : rstate) : Prop := cinv (rs_cache s) /\ all_correct r (rs_done s).

(* with the patch confined to get_code: every load keeps the invariant and executes what the current
   source and the current hook configuration call for *)
Lemma load_correct : forall fuel m s, run_ok s -> run_ok (load false r fuel m None s).
Proof.
  induction fuel as [|fuel IH]; intros m s [Hc Hd]; cbn [load]; [now split|].
  destruct (is_done s m); [now split|].
  destruct (match cget _ _ _ with Some _ => _ | None => _ end) as [ran c'] eqn:E.
  apply access_correct in E as [Hc' ->]; [|exact Hc | now destruct (aget (r_hooked r) m)].
  apply fold_left_invariant; [intros st d; apply IH|].
  split; [exact Hc'|]. intros x [<-|Hx]; [reflexivity | now apply Hd].
Qed.

Theorem run_once_correct c : cinv c ->
  cinv (rs_cache (run_once false r c)) /\ all_correct r (rs_done (run_once false r c)).
Proof. intros Hc. apply (fold_left_invariant run_ok); [intros st m; apply load_correct|]. split; [exact Hc | intros x []]. Qed.
End GetCode.

(* for EVERY history of runs over one cache directory (any hooked subsets, checkers, import orders with nested
   imports, source edits in between): every module executed in every run is what that run's configuration and
   the current source call for *)
Theorem history_correct : forall rs c, cinv c ->
  Forall2 (fun r d => all_correct r d) rs (run_history false rs c).
Proof.
  induction rs as [|r rest IH]; intros c Hc; cbn [run_history]; [constructor|].
  destruct (run_once_correct r c Hc) as [Hc' Hd]. constructor; [|now apply IH].
  intros x Hx. apply Hd. now apply in_rev.
Qed.

Lemma second_run_wrong r1 r2 d1 d2 x : In x d2 -> snd x <> expected r2 (fst x) ->
  ~ Forall2 (fun r d => all_correct r d) [r1; r2] [d1; d2].
Proof. intros Hx Hne H. inversion H as [|? ? ? ? _ H2]; subst. inversion H2 as [|? ? ? ? Hd _]; subst. exact (Hne (Hd x Hx)). Qed.

(* module a imports module b: the data of the two-run witnesses in props/C18.v, and of the history below *)
Definition witness_deps : alist (list string) := [("a", ["b"])].
Definition witness_src : alist nat := [("a", 1); ("b", 1)].

Example history_nonvacuous :
  map show_done (run_history false [mkrun [("a", "h")] witness_src witness_deps ["a"]; mkrun [("a", "h"); ("b", "h")] witness_src witness_deps ["a"];
                                    mkrun [("b", "g")] [("a", 2); ("b", 1)] witness_deps ["b"; "a"]] [])
  = ["a=hooked:h@1,b=plain@1"; "a=hooked:h@1,b=hooked:h@1"; "b=hooked:g@1,a=plain@2"].
Proof. vm_compute. reflexivity. Qed.
