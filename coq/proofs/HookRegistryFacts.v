(* HookRegistryFacts.v -- per-load tagging (the source) against per-file tagging (model/HookRegistry.v), C18. *)
From JT Require Import model.HookRegistry proofs.BaseFacts.

(* in the source's design a continuation inside one interpreter is one more run: everything proved of histories holds of it *)
Lemma process_getcode_is_history : forall ps c, fst (process_getcode ps c) = run_history false ps c.
Proof.
  induction ps as [|r rest IH]; intros c; cbn [process_getcode run_history]; [reflexivity|].
  specialize (IH (rs_cache (run_once false r c))). destruct (process_getcode rest (rs_cache (run_once false r c))) as [ds c'].
  cbn [fst] in *. now rewrite IH.
Qed.

Section OnePhase.
Variable r : runcfg.

(* while the registry holds nothing but this phase's own hooked files, looking a file up is asking whether it is hooked *)
Definition reg_sub (reg : alist string) : Prop := forall m h, aget reg m = Some h -> aget (r_hooked r) m = Some h.

(* the loader's constructor registers a hooked file, and then the dispatcher looks the file up *)
Lemma register_sub m reg : reg_sub reg ->
  let reg' := match aget (r_hooked r) m with Some h => (m, h) :: reg | None => reg end in
  reg_sub reg' /\ aget reg' m = aget (r_hooked r) m.
Proof.
  intros Hs. destruct (aget (r_hooked r) m) as [h|] eqn:Eh; cbn zeta.
  - split; [|cbn [aget]; now rewrite String.eqb_refl]. intros m' h' H. cbn [aget] in H.
    destruct (String.eqb_spec m' m) as [->|]; [now rewrite <- H | now apply Hs].
  - split; [exact Hs|]. destruct (aget reg m) as [h'|] eqn:Er; [|reflexivity]. apply Hs in Er. congruence.
Qed.

Definition reg_sim (s : gstate) (s' : rstate) : Prop := g_rs s = s' /\ reg_sub (g_reg s).

Lemma load_reg_sim : forall fuel m s s', reg_sim s s' -> reg_sim (load_reg r fuel m s) (load false r fuel m None s').
Proof.
  induction fuel as [|fuel IH]; intros m s s' [<- Hs]; cbn [load_reg load]; [now split|].
  destruct (is_done (g_rs s) m); [now split|].
  destruct (register_sub m (g_reg s) Hs) as [Hreg' ->].
  destruct (match cget _ _ _ with Some _ => _ | None => _ end) as [ran c'].
  apply fold_left_sim; [intros st st' d; apply IH | now split].
Qed.

(* a phase that finds in the registry only files it hooks itself -- so every process of ONE phase (every test of the suite,
   every history without a continuation), which starts from the empty registry -- cannot tell the two designs apart *)
Theorem phase_agrees c reg : reg_sub reg -> g_rs (phase_reg r c reg) = run_once false r c.
Proof. intros Hreg. eapply proj1, (fold_left_sim reg_sim); [intros st st' m; apply load_reg_sim | now split]. Qed.
End OnePhase.

(* the phases of the continuations in props/C18.v that can: hooked import of a, hook uninstalled, a imported again (as it is / after an edit) *)
Definition reg_src1 : alist nat := [("a", 1)].
Definition reg_src2 : alist nat := [("a", 2)].
Definition reg_hooked : runcfg := mkrun [("a", "h")] reg_src1 [] ["a"].
Definition reg_plain1 : runcfg := mkrun [] reg_src1 [] ["a"].
Definition reg_plain2 : runcfg := mkrun [] reg_src2 [] ["a"].
Definition reg_hooked2 : runcfg := mkrun [("a", "h")] reg_src2 [] ["a"].
