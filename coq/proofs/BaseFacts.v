(* BaseFacts.v -- facts about the shared vocabulary of model/Base.v (strings, printed numbers, association lists) and about the list
   operations of the standard library that the models use (membership tests, pointwise tests, folds, Python's slices). *)
From JT Require Import model.Base.
From Coq Require Import Lia DecimalString DecimalZ DecimalPos.

Lemma ex_Some_eq {A} (c : A) (P : A -> Prop) : (exists x, Some c = Some x /\ P x) <-> P c.
Proof. split; [intros [x [E H]]; inversion E; subst; exact H | eauto]. Qed.

Lemma existsb_eqb_In s l : existsb (String.eqb s) l = true <-> In s l.
Proof.
  rewrite existsb_exists. split.
  - intros (x & Hi & ->%String.eqb_eq). exact Hi.
  - intros H. exists s. split; [assumption | apply String.eqb_refl].
Qed.

Lemma append_nil_r (s : string) : s ++ "" = s.
Proof. induction s as [|c s IH]; cbn; [reflexivity | now rewrite IH]. Qed.

Lemma append_assoc (a b c : string) : (a ++ b) ++ c = a ++ (b ++ c).
Proof. induction a as [|x a IH]; cbn; [reflexivity | now rewrite IH]. Qed.

Lemma app_cancel_l (a x y : string) : a ++ x = a ++ y -> x = y.
Proof. induction a as [|c a IH]; cbn; [auto | intros H; inversion H; auto]. Qed.

(* printing is injective because parsing undoes it (NilZero.isi), for every int other than the two empty numerals *)
Lemma zs_inj a b : zs a = zs b -> a = b.
Proof.
  unfold zs. intros H. apply DecimalZ.to_int_inj.
  assert (Hn : forall z, Z.to_int z <> Decimal.Pos Decimal.Nil /\ Z.to_int z <> Decimal.Neg Decimal.Nil).
  { intros [|p|p]; cbn; split; intros E; inversion E as [E']; exact (Unsigned.to_uint_nonnil _ E'). }
  destruct (Hn a) as [Ha1 Ha2], (Hn b) as [Hb1 Hb2].
  pose proof (NilZero.isi _ Ha1 Ha2) as Ia. pose proof (NilZero.isi _ Hb1 Hb2) as Ib.
  rewrite H in Ia. congruence.
Qed.

Lemma ns_inj i j : ns i = ns j -> i = j.
Proof. unfold ns. intros H. apply zs_inj in H. lia. Qed.

Lemma aget_aset {V} (m : alist V) k v k' :
  aget (aset m k v) k' = if String.eqb k' k then Some v else aget m k'.
Proof.
  induction m as [|[k0 v0] m IH]; cbn; [reflexivity|].
  destruct (String.eqb_spec k k0) as [->|Hk]; cbn.
  - destruct (String.eqb k' k0); reflexivity.
  - rewrite IH. destruct (String.eqb_spec k' k0) as [->|]; [|reflexivity].
    destruct (String.eqb_spec k0 k); congruence.
Qed.

Lemma aget_aset_same {V} (m : alist V) k v : aget (aset m k v) k = Some v.
Proof. rewrite aget_aset. now rewrite String.eqb_refl. Qed.

Lemma aset_same {V} (m : alist V) k v : aget m k = Some v -> aset m k v = m.
Proof.
  induction m as [|[k0 v0] m IH]; cbn; [discriminate|].
  destruct (String.eqb_spec k k0) as [->|]; intros H; [inversion H; reflexivity | now rewrite IH].
Qed.

Local Open Scope list_scope.

Lemma fold_left_invariant {A B} (P : A -> Prop) (f : A -> B -> A) :
  (forall a b, P a -> P (f a b)) -> forall l a, P a -> P (fold_left f l a).
Proof. intros Hf. induction l as [|b l IH]; cbn; auto. Qed.

Lemma fold_left_sim {A A' B} (R : A -> A' -> Prop) (f : A -> B -> A) (f' : A' -> B -> A') :
  (forall a a' b, R a a' -> R (f a b) (f' a' b)) -> forall l a a', R a a' -> R (fold_left f l a) (fold_left f' l a').
Proof. intros Hf. induction l as [|b l IH]; cbn; auto. Qed.

Lemma map_fixed {A} (f : A -> A) l : Forall (fun x => f x = x) l -> map f l = l.
Proof. intros H. rewrite (map_ext_Forall _ _ H). apply map_id. Qed.

Lemma forallb_flat_map {A B} (f : B -> bool) (g : A -> list B) l : forallb f (flat_map g l) = forallb (fun a => forallb f (g a)) l.
Proof. induction l as [|a l IH]; cbn; [reflexivity | now rewrite forallb_app, IH]. Qed.

Lemma Forall_guard {A} (f : A -> bool) (Q : A -> Prop) l : Forall (fun a => f a = true -> Q a) l -> forallb f l = true -> Forall Q l.
Proof. rewrite forallb_forall, !Forall_forall. auto. Qed.

Lemma Forall2_eq {A} (l l' : list A) : Forall2 eq l l' <-> l = l'.
Proof. split; [induction 1; congruence | intros ->; induction l'; auto]. Qed.

(* two lists compared pointwise by a boolean test: the models' strlist_eqb, the local loops of tdef_eqb and is_prefix.
   The hypothesis is a Forall so that the nested induction hypothesis of a tree fits. *)
Section All2.
Variables (A B : Type) (f : A -> B -> bool).
Fixpoint all2b (l : list A) (l' : list B) : bool :=
  match l, l' with [], [] => true | x :: r, y :: r' => f x y && all2b r r' | _, _ => false end.

Lemma all2b_Forall2 (R : A -> B -> Prop) l :
  Forall (fun x => forall y, f x y = true <-> R x y) l -> forall l', all2b l l' = true <-> Forall2 R l l'.
Proof.
  induction 1 as [|x r Hx _ IH]; intros [|y r']; cbn; try (split; [discriminate | intros H; inversion H]).
  - split; constructor.
  - rewrite andb_true_iff, Hx, IH. split; [intros []; constructor; auto | intros H; inversion H; auto].
Qed.
End All2.
Arguments all2b {A B} f l l'.
Arguments all2b_Forall2 {A B} f R l.

Lemma all2b_eqb_eq a b : all2b String.eqb a b = true <-> a = b.
Proof. rewrite <- Forall2_eq. apply (all2b_Forall2 String.eqb), Forall_forall. intros x _ y. apply String.eqb_eq. Qed.

Lemma Forall2_len {A B} (P : A -> B -> Prop) l l' : Forall2 P l l' -> length l = length l'.
Proof. induction 1; cbn; congruence. Qed.

Lemma skipn_skipn' {A} (x y : nat) (l : list A) : skipn x (skipn y l) = skipn (y + x) l.
Proof. revert l. induction y as [|y IH]; intros l; cbn; [reflexivity|]. destruct l; [now rewrite skipn_nil | apply IH]. Qed.

(* `shape[:i]`, `shape[i:j]`, `shape[j:]` with j = -(len(dims)-i-1) (or None when that is 0)
   cover every axis exactly once, for every rank >= len(dims)-1 *)
Theorem slices_partition (sh : list Z) (i k : nat) :
  (i + k <= length sh)%nat ->
  sh = firstn i sh ++ firstn (length sh - k - i) (skipn i sh) ++ skipn (length sh - k) sh /\
  length (firstn i sh) = i /\
  length (firstn (length sh - k - i) (skipn i sh)) = (length sh - k - i)%nat /\
  length (skipn (length sh - k) sh) = k.
Proof.
  intros H. rewrite !firstn_length, !skipn_length. repeat split; try lia.
  rewrite <- (firstn_skipn i sh) at 1. f_equal.
  rewrite <- (firstn_skipn (length sh - k - i) (skipn i sh)) at 1. f_equal.
  rewrite skipn_skipn'. f_equal. lia.
Qed.

Lemma firstn_app_exact {A} (a b : list A) : firstn (length a) (a ++ b) = a.
Proof. rewrite firstn_app, firstn_all, Nat.sub_diag. apply app_nil_r. Qed.
Lemma skipn_app_exact {A} (a b : list A) : skipn (length a) (a ++ b) = b.
Proof. now rewrite skipn_app, skipn_all, Nat.sub_diag. Qed.

(* those three slices are the only way of cutting the shape into a prefix of i and a suffix of k axes *)
Lemma split3_unique (sh pre mid suf : list Z) (i k : nat) :
  sh = pre ++ mid ++ suf -> length pre = i -> length suf = k ->
  pre = firstn i sh /\ mid = firstn (length sh - k - i) (skipn i sh) /\ suf = skipn (length sh - k) sh.
Proof.
  intros -> <- <-. rewrite firstn_app_exact, skipn_app_exact, !app_length.
  replace (length pre + (length mid + length suf) - length suf - length pre)%nat with (length mid) by lia.
  replace (length pre + (length mid + length suf) - length suf)%nat with (length (pre ++ mid)) by (rewrite app_length; lia).
  now rewrite firstn_app_exact, app_assoc, skipn_app_exact.
Qed.
