(* HookFacts.v -- the import hook's source transformation only adds (C10). *)
From JT Require Import model.HookAst proofs.BaseFacts.
Open Scope list_scope.

Definition kids (f : field) : list ast := match f with FScalar _ => [] | FNode x => [x] | FList xs => xs end.
Definition children (fs : list (string * field)) : list ast := flat_map (fun nf => kids (snd nf)) fs.

Section AInd.
Variable P : ast -> Prop.
Hypothesis H : forall c l fs, Forall P (children fs) -> P (N c l fs).
Fixpoint ast_ind' (a : ast) : P a :=
  match a with
  | N c l fs =>
      H c l fs ((fix go (fs : list (string * field)) : Forall P (children fs) :=
                   match fs with
                   | [] => Forall_nil _
                   | (n, f) :: r =>
                       proj2 (Forall_app P (kids f) (children r))
                         (conj (match f return Forall P (kids f) with
                                | FScalar _ => Forall_nil _
                                | FNode x => Forall_cons x (ast_ind' x) (Forall_nil _)
                                | FList xs => (fix gol (xs : list ast) : Forall P xs :=
                                                 match xs with [] => Forall_nil _ | x :: r => Forall_cons x (ast_ind' x) (gol r) end) xs
                                end) (go r))
                   end) fs)
  end.
End AInd.

Lemma children_cons n f r : children ((n, f) :: r) = kids f ++ children r.
Proof. reflexivity. Qed.

(* a test folded over the fields the way the model's nested loops do it *)
Lemma forallb_children (q : ast -> bool) fs :
  (fix go (fs : list (string * field)) : bool :=
     match fs with
     | [] => true
     | (n, f) :: r =>
         match f with
         | FScalar _ => true
         | FNode x => q x
         | FList xs => (fix gol (xs : list ast) : bool := match xs with [] => true | x :: r => q x && gol r end) xs
         end && go r
     end) fs = forallb q (children fs).
Proof.
  induction fs as [|[n f] r IH]; [reflexivity|]. rewrite children_cons, forallb_app, IH. f_equal.
  destruct f as [s|x|xs]; cbn [kids forallb]; [reflexivity | now rewrite andb_true_r |].
  induction xs as [|x xs IHx]; [reflexivity|]. cbn [forallb]. now rewrite IHx.
Qed.

Section MF.
Variable g : ast -> ast.
(* map_asts is convertible with map g *)
Fixpoint map_asts (xs : list ast) : list ast := match xs with [] => [] | x :: r => g x :: map_asts r end.
Definition map_field (f : field) : field :=
  match f with FScalar s => FScalar s | FNode x => FNode (g x) | FList xs => FList (map g xs) end.
Fixpoint map_fields (fs : list (string * field)) : list (string * field) :=
  match fs with [] => [] | (n, f) :: r => (n, map_field f) :: map_fields r end.
End MF.

Lemma kids_map g f : kids (map_field g f) = map g (kids f).
Proof. destruct f; reflexivity. Qed.

Lemma children_map g fs : children (map_fields g fs) = map g (children fs).
Proof. induction fs as [|[n f] r IH]; [reflexivity|]. cbn [map_fields]. now rewrite !children_cons, map_app, kids_map, IH. Qed.

Lemma map_fields_comp g h fs : map_fields g (map_fields h fs) = map_fields (fun x => g (h x)) fs.
Proof.
  induction fs as [|[n f] r IH]; [reflexivity|]. cbn [map_fields]. rewrite IH. do 2 f_equal.
  destruct f; cbn [map_field]; now rewrite ?map_map.
Qed.

Lemma map_fields_fixed g fs : Forall (fun x => g x = x) (children fs) -> map_fields g fs = fs.
Proof.
  induction fs as [|[n f] r IH]; [reflexivity|]. rewrite children_cons, Forall_app. intros [Hf Hr].
  cbn [map_fields]. rewrite (IH Hr). do 2 f_equal.
  destruct f as [s|x|xs]; cbn [map_field kids] in *; [reflexivity | now rewrite (Forall_inv Hf) | now rewrite map_fixed].
Qed.

Lemma get_set_same name v fs f0 : get_field name fs = Some f0 -> get_field name (set_field name v fs) = Some v.
Proof. induction fs as [|[n f] r IH]; cbn; [discriminate|]. destruct (String.eqb n name) eqn:E; cbn; rewrite E; auto. Qed.

Lemma get_set_other name name' v fs : String.eqb name' name = false -> get_field name (set_field name' v fs) = get_field name fs.
Proof.
  intros Hn. induction fs as [|[n f] r IH]; cbn; [reflexivity|].
  destruct (String.eqb_spec n name') as [->|]; cbn; [now rewrite Hn | now rewrite IH].
Qed.

Lemma set_set name v v' fs : set_field name v (set_field name v' fs) = set_field name v fs.
Proof. induction fs as [|[n f] r IH]; cbn; [reflexivity|]. destruct (String.eqb n name) eqn:E; cbn; rewrite E; [reflexivity | now rewrite IH]. Qed.

Lemma set_get_id name fs f0 : get_field name fs = Some f0 -> set_field name f0 fs = fs.
Proof. induction fs as [|[n f] r IH]; cbn; [reflexivity|]. destruct (String.eqb n name); [intros [= ->]; reflexivity | intros H; now rewrite IH]. Qed.

Lemma get_map g name fs : get_field name (map_fields g fs) = option_map (map_field g) (get_field name fs).
Proof. induction fs as [|[n f] r IH]; cbn; [reflexivity|]. now destruct (String.eqb n name). Qed.

Lemma map_set g name v fs : map_fields g (set_field name v fs) = set_field name (map_field g v) (map_fields g fs).
Proof. induction fs as [|[n f] r IH]; cbn; [reflexivity|]. destruct (String.eqb n name); cbn; [reflexivity | now rewrite IH]. Qed.

Lemma get_children name fs xs : get_field name fs = Some (FList xs) -> incl xs (children fs).
Proof.
  induction fs as [|[n f] r IH]; cbn [get_field]; [discriminate|]. rewrite children_cons. destruct (String.eqb n name).
  - intros [= ->]. now apply incl_appl.
  - intros Hg. now apply incl_appr, IH.
Qed.

Lemma Forall_children_set P name xs fs : Forall P (children fs) -> Forall P xs -> Forall P (children (set_field name (FList xs) fs)).
Proof.
  intros Hfs Hxs. induction fs as [|[n f] r IH]; [constructor|]. rewrite children_cons, Forall_app in Hfs. destruct Hfs as [Hf Hr].
  cbn [set_field]. destruct (String.eqb n name); rewrite children_cons, Forall_app; auto.
Qed.

(* the shape of every class clause of xform and strip: one list-valued field rewritten, the node left alone when
   the field is absent or not a list *)
Definition edit (name : string) (f : list ast -> list ast) (fs : list (string * field)) : list (string * field) :=
  match get_field name fs with Some (FList xs) => set_field name (FList (f xs)) fs | _ => fs end.

Lemma get_edit_same name f fs :
  get_field name (edit name f fs) = match get_field name fs with Some (FList xs) => Some (FList (f xs)) | o => o end.
Proof. unfold edit. destruct (get_field name fs) as [[s|x|xs]|] eqn:E; try exact E. exact (get_set_same _ _ _ _ E). Qed.

Lemma get_edit_other name name' f fs : String.eqb name' name = false -> get_field name (edit name' f fs) = get_field name fs.
Proof. intros Hn. unfold edit. destruct (get_field name' fs) as [[s|x|xs]|]; try reflexivity. now apply get_set_other. Qed.

Lemma Forall_children_edit P name f fs :
  (forall xs, Forall P xs -> Forall P (f xs)) -> Forall P (children fs) -> Forall P (children (edit name f fs)).
Proof.
  intros Hf Hfs. unfold edit. destruct (get_field name fs) as [[s|x|xs]|] eqn:E; try exact Hfs.
  apply Forall_children_set; [exact Hfs|]. apply Hf. exact (incl_Forall (get_children _ _ _ E) Hfs).
Qed.

(* mapping h over the children and then adding, undone by mapping g and then removing *)
Lemma edit_inverse name add rem g h fs :
  Forall (fun x => g (h x) = x) (children fs) ->
  (forall xs, Forall (fun x => g (h x) = x) xs -> rem (map g (add (map h xs))) = xs) ->
  edit name rem (map_fields g (edit name add (map_fields h fs))) = fs.
Proof.
  intros Hfs Hxs.
  assert (Hm : map_fields g (map_fields h fs) = fs) by (rewrite map_fields_comp; now apply map_fields_fixed).
  unfold edit at 2. rewrite get_map.
  destruct (get_field name fs) as [[s|x|xs]|] eqn:E; cbn [option_map map_field]; rewrite ?map_set, Hm; cbn [map_field]; unfold edit.
  1, 2, 4: now rewrite E.
  rewrite (get_set_same _ _ _ _ E), set_set.
  rewrite Hxs by exact (incl_Forall (get_children _ _ _ E) Hfs). exact (set_get_id _ _ _ E).
Qed.

(* both directions: the children first, then one edit chosen by the node's class *)
Definition scope_class (c : string) : bool := String.eqb c "Module" || String.eqb c "ClassDef" || String.eqb c "FunctionDef".

Definition post (fm fc ff : list ast -> list ast) (c : string) (fs : list (string * field)) : list (string * field) :=
  if String.eqb c "Module" then edit "body" fm fs
  else if String.eqb c "ClassDef" then edit "decorator_list" fc fs
  else if String.eqb c "FunctionDef" then edit "decorator_list" ff fs
  else fs.

Definition post_x (dec : ast) (l : loc) := post insert_import (cons (relocate dec l)) (fun d => d ++ [relocate dec l]).
Definition post_s := post remove_import (@tl ast) (@removelast ast).

Lemma xform_eq dec c l fs : xform dec (N c l fs) = N c l (post_x dec l c (map_fields (xform dec) fs)).
Proof. cbn [xform]. reflexivity. Qed.
Lemma strip_eq c l fs : strip (N c l fs) = N c l (post_s c (map_fields strip fs)).
Proof. cbn [strip]. reflexivity. Qed.

Lemma post_other_class fm fc ff c fs : scope_class c = false -> post fm fc ff c fs = fs.
Proof. unfold scope_class, post. intros H. apply orb_false_iff in H as [H H3]. apply orb_false_iff in H as [H1 H2]. now rewrite H1, H2, H3. Qed.

Lemma get_post_other fm fc ff c fs name :
  String.eqb "body" name = false -> String.eqb "decorator_list" name = false -> get_field name (post fm fc ff c fs) = get_field name fs.
Proof.
  intros H1 H2. unfold post.
  destruct (String.eqb c "Module"); [|destruct (String.eqb c "ClassDef"); [|destruct (String.eqb c "FunctionDef")]];
    try reflexivity; now apply get_edit_other.
Qed.

Lemma Forall_children_post P fm fc ff c fs :
  (forall xs, Forall P xs -> Forall P (fm xs)) -> (forall xs, Forall P xs -> Forall P (fc xs)) -> (forall xs, Forall P xs -> Forall P (ff xs)) ->
  Forall P (children fs) -> Forall P (children (post fm fc ff c fs)).
Proof.
  intros Hm Hc Hf Hfs. unfold post.
  destruct (String.eqb c "Module"); [|destruct (String.eqb c "ClassDef"); [|destruct (String.eqb c "FunctionDef")]];
    try exact Hfs; now apply Forall_children_edit.
Qed.

Lemma ast_eqb_refl : forall a, ast_eqb a a = true.
Proof.
  apply ast_ind'. intros c l fs IH. cbn [ast_eqb]. rewrite String.eqb_refl. apply andb_true_intro. split.
  - destruct l as [[[[x1 x2] x3] x4]|]; [|reflexivity]. now rewrite !Z.eqb_refl.
  - induction fs as [|[n f] r IHr]; [reflexivity|]. rewrite children_cons, Forall_app in IH. destruct IH as [Hf Hr].
    rewrite String.eqb_refl, (IHr Hr), andb_true_r. cbn [andb]. destruct f as [s|x|xs]; cbn [kids] in Hf.
    + apply String.eqb_refl.
    + exact (Forall_inv Hf).
    + induction Hf as [|x xs Hx _ IHx]; [reflexivity|]. now rewrite Hx, IHx.
Qed.

Lemma closed_eq c l fs : closed (N c l fs) = negb (scope_class c) && forallb closed (children fs).
Proof. cbn [closed]. f_equal. apply forallb_children. Qed.

Lemma closed_ind (P : ast -> Prop) :
  (forall c l fs, scope_class c = false -> Forall P (children fs) -> P (N c l fs)) -> forall a, closed a = true -> P a.
Proof.
  intros H. apply (ast_ind' (fun a => closed a = true -> P a)). intros c l fs IH Hc.
  rewrite closed_eq in Hc. apply andb_true_iff in Hc as [Hcls Hfs]. apply negb_true_iff in Hcls.
  apply H; [exact Hcls|]. rewrite forallb_forall in Hfs. rewrite Forall_forall in *. auto.
Qed.

(* anything that, like both directions, only maps itself over the children of a node of another class *)
Lemma closed_fixed g :
  (forall c l fs, scope_class c = false -> g (N c l fs) = N c l (map_fields g fs)) ->
  forall a, closed a = true -> g a = a.
Proof. intros Hg. apply closed_ind. intros c l fs Hc IH. rewrite (Hg _ _ _ Hc). f_equal. now apply map_fields_fixed. Qed.

(* the added nodes contain no def / class, so re-visiting them changes nothing *)
Theorem closed_xform_id dec : forall a, closed a = true -> xform dec a = a.
Proof. apply closed_fixed. intros c l fs Hc. rewrite xform_eq. unfold post_x. now rewrite post_other_class. Qed.

Theorem closed_strip_id : forall a, closed a = true -> strip a = a.
Proof. apply closed_fixed. intros c l fs Hc. rewrite strip_eq. unfold post_s. now rewrite post_other_class. Qed.

Lemma closed_relocate dec l : closed dec = true -> closed (relocate dec l) = true.
Proof. destruct dec as [c l0 fs]. cbn [relocate]. rewrite !closed_eq. auto. Qed.

Lemma closed_the_import : closed the_import = true. Proof. reflexivity. Qed.

Lemma Forall_insert_import (P : ast -> Prop) body : P the_import -> Forall P body -> Forall P (insert_import body).
Proof.
  intros Hi. induction 1 as [|s r Hs Hr IH]; [constructor|]. cbn [insert_import].
  destruct (is_future_import s || is_const_expr s); auto.
Qed.

Lemma remove_insert body : remove_import (insert_import body) = body.
Proof.
  induction body as [|s r IH]; [reflexivity|]. cbn [insert_import].
  destruct (is_future_import s || is_const_expr s) eqn:E.
  - cbn [remove_import]. now rewrite E, IH.
  - (* the_import is neither a __future__ import nor a constant, and equal to itself: by computation *)
    reflexivity.
Qed.

Lemma root_kept dec t : cls_of (xform dec t) = cls_of t /\ loc_of (xform dec t) = loc_of t.
Proof. destruct t as [c l fs]. split; reflexivity. Qed.

(* is_future_import / is_const_expr look at the class, a scalar, and a child's class only: unaffected by the transformation *)
Lemma prefix_tests_stable dec s :
  is_future_import (xform dec s) = is_future_import s /\ is_const_expr (xform dec s) = is_const_expr s.
Proof.
  destruct s as [c l fs]. unfold is_future_import, is_const_expr. rewrite xform_eq. cbn [cls_of fields_of]. unfold post_x.
  rewrite !get_post_other by reflexivity. rewrite !get_map. split.
  - destruct (get_field "module" fs) as [[s|x|xs]|]; reflexivity.
  - destruct (get_field "value" fs) as [[s|x|xs]|]; try reflexivity. cbn. now rewrite (proj1 (root_kept dec x)).
Qed.

Lemma insert_import_xform dec body :
  insert_import (map_asts (xform dec) body) =
  match insert_import body with
  | _ => (fix go (b : list ast) : list ast :=
            match b with
            | [] => []
            | s :: r => if is_future_import s || is_const_expr s then xform dec s :: go r else the_import :: xform dec s :: map_asts (xform dec) r
            end) body
  end.
Proof.
  induction body as [|s r IH]; [reflexivity|]. cbn [map_asts insert_import].
  destruct (prefix_tests_stable dec s) as [-> ->]. destruct (is_future_import s || is_const_expr s); [now rewrite IH | reflexivity].
Qed.

(* the code inserts the import and then visits it with the rest of the body: the same as inserting it afterwards *)
Lemma insert_import_map dec body : insert_import (map (xform dec) body) = map (xform dec) (insert_import body).
Proof.
  induction body as [|s r IH]; [reflexivity|]. cbn [map insert_import].
  destruct (prefix_tests_stable dec s) as [-> ->]. destruct (is_future_import s || is_const_expr s); cbn [map]; [now rewrite IH|].
  now rewrite (closed_xform_id dec _ closed_the_import).
Qed.

(* the main theorem: removing the additions gives back the original tree, node for node, locations and
   scalars included.  Whatever the decorator is: strip drops the first / last decorator unseen. *)
Theorem strip_xform dec : forall t, strip (xform dec t) = t.
Proof.
  apply ast_ind'. intros c l fs IH. rewrite xform_eq, strip_eq. f_equal. unfold post_x, post_s, post.
  destruct (String.eqb c "Module"); [|destruct (String.eqb c "ClassDef"); [|destruct (String.eqb c "FunctionDef")]].
  - apply edit_inverse; [exact IH|]. intros b Hb.
    rewrite insert_import_map, map_map, map_fixed; [apply remove_insert|].
    apply Forall_insert_import; [|exact Hb]. rewrite (closed_xform_id dec _ closed_the_import). apply closed_strip_id, closed_the_import.
  - apply edit_inverse; [exact IH|]. intros d Hd. cbn [map tl]. now rewrite map_map, map_fixed.
  - apply edit_inverse; [exact IH|]. intros d Hd. rewrite map_app. cbn [map]. now rewrite removelast_last, map_map, map_fixed.
  - rewrite map_fields_comp. now apply map_fields_fixed.
Qed.
