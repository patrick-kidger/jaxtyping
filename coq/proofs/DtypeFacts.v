(* DtypeFacts.v -- the generated dtype tables against the documented hierarchy (C03). *)
From JT Require Import model.Dtype gen.DtypeTables proofs.BaseFacts.
Open Scope list_scope.

(* the documented hierarchy (docs/api/array.md, "Dtype") *)
Definition s_bool := ["bool"; "bool_"].
Definition s_key := ["prng_key"].
Definition s_uint := ["uint2"; "uint4"; "uint8"; "uint16"; "uint32"; "uint64"].
Definition s_int := ["int2"; "int4"; "int8"; "int16"; "int32"; "int64"].
Definition s_float8 := ["float8_e4m3b11fnuz"; "float8_e4m3fn"; "float8_e4m3fnuz"; "float8_e5m2"; "float8_e5m2fnuz"].
Definition s_float := s_float8 ++ ["bfloat16"; "float16"; "float32"; "float64"].
Definition s_complex := ["complex64"; "complex128"].
Definition s_integer := s_uint ++ s_int.
Definition s_inexact := s_float ++ s_complex.
Definition s_real := s_float ++ s_integer.
Definition s_num := s_integer ++ s_inexact.

(* one class per precision: class name, its one dtype *)
Definition precision_classes : list (string * string) :=
  [("UInt2","uint2"); ("UInt4","uint4"); ("UInt8","uint8"); ("UInt16","uint16"); ("UInt32","uint32"); ("UInt64","uint64");
   ("Int2","int2"); ("Int4","int4"); ("Int8","int8"); ("Int16","int16"); ("Int32","int32"); ("Int64","int64");
   ("Float8e4m3b11fnuz","float8_e4m3b11fnuz"); ("Float8e4m3fn","float8_e4m3fn"); ("Float8e4m3fnuz","float8_e4m3fnuz");
   ("Float8e5m2","float8_e5m2"); ("Float8e5m2fnuz","float8_e5m2fnuz");
   ("BFloat16","bfloat16"); ("Float16","float16"); ("Float32","float32"); ("Float64","float64");
   ("Complex64","complex64"); ("Complex128","complex128")].

Definition spec_table : list (string * option (list string)) :=
  map (fun p => (fst p, Some [snd p])) precision_classes ++
  [("Bool", Some s_bool); ("UInt", Some s_uint); ("Int", Some s_int); ("Integer", Some s_integer);
   ("Float", Some s_float); ("Complex", Some s_complex); ("Inexact", Some s_inexact); ("Real", Some s_real);
   ("Num", Some s_num); ("Shaped", None); ("Key", Some s_key)].

Fixpoint lookup {V} (k : string) (t : list (string * V)) : option V :=
  match t with [] => None | (k', v) :: r => if String.eqb k k' then Some v else lookup k r end.

Definition mem (s : string) (l : list string) : bool := existsb (String.eqb s) l.
Definition subset (a b : list string) : bool := forallb (fun s => mem s b) a.
Definition set_eqb (a b : list string) : bool := subset a b && subset b a.
Definition oset_eqb (a b : option (list string)) : bool :=
  match a, b with None, None => true | Some x, Some y => set_eqb x y | _, _ => false end.

Lemma subset_spec a b : subset a b = true -> forall s, mem s a = true -> mem s b = true.
Proof. unfold subset. rewrite forallb_forall. intros H s Hs%existsb_eqb_In. now apply H. Qed.

Lemma set_eqb_spec a b : set_eqb a b = true -> forall s, mem s a = mem s b.
Proof. intros [H1 H2]%andb_true_iff s. apply Bool.eq_iff_eq_true. split; apply subset_spec; assumption. Qed.

(* the table as the match loop sees it: every entry of a built-in category is a plain string *)
Definition as_pats (o : option (list string)) : option (list dpat) := option_map (map PStr) o.

Lemma cat_accepts_strings l name : cat_accepts (Some (map PStr l)) name = mem name l.
Proof. cbn. unfold mem. induction l as [|x l IH]; cbn; [reflexivity | now rewrite IH]. Qed.

Lemma oset_eqb_spec gen sp : oset_eqb gen sp = true ->
  forall name, cat_accepts (as_pats gen) name = match sp with None => true | Some l => mem name l end.
Proof.
  destruct gen as [g|], sp as [s|]; try discriminate; intros H name; [|reflexivity].
  cbn [as_pats option_map]. rewrite cat_accepts_strings. now apply set_eqb_spec.
Qed.

(* every category of the generated table has the documented contents, and the two tables
   define the same categories (a bounded sweep over the 34 names, decided by computation) *)
Lemma generated_documented :
  forallb (fun kv => match lookup (fst kv) spec_table with Some v => oset_eqb (snd kv) v | None => false end) category_table = true.
Proof. vm_compute. reflexivity. Qed.

Lemma documented_generated :
  forallb (fun kv => match lookup (fst kv) category_table with Some _ => true | None => false end) spec_table = true.
Proof. vm_compute. reflexivity. Qed.

(* a sweep of one table against another, read off at one key *)
Lemma forallb_lookup {V W} (P : V -> W -> bool) (t : list (string * V)) (t' : list (string * W)) k v :
  forallb (fun kv => match lookup (fst kv) t' with Some w => P (snd kv) w | None => false end) t = true ->
  lookup k t = Some v -> exists w, lookup k t' = Some w /\ P v w = true.
Proof.
  induction t as [|[k0 v0] t IH]; cbn [forallb lookup fst snd]; [discriminate|]. intros [H0 Ht]%andb_true_iff.
  destruct (String.eqb_spec k k0) as [->|]; [|auto]. intros [= <-].
  destruct (lookup k0 t') as [w|]; [eauto | discriminate].
Qed.

(* a sweep of a table against a function of the key, read off at one entry *)
Lemma forallb_entry {K V} (dec : forall x y : V, {x = y} + {x <> y}) (f : K -> V) (t : list (K * V)) :
  forallb (fun kv => if dec (snd kv) (f (fst kv)) then true else false) t = true -> forall k v, In (k, v) t -> v = f k.
Proof. intros H k v Hin. rewrite forallb_forall in H. specialize (H _ Hin). cbn in H. now destruct (dec v (f k)). Qed.

(* the documented inclusions, unions and disjointness hold of the spec *)
Definition disjoint (a b : list string) : bool := forallb (fun s => negb (mem s b)) a.
Theorem hierarchy :
  set_eqb s_num (s_inexact ++ s_integer) = true /\ set_eqb s_inexact (s_float ++ s_complex) = true /\
  set_eqb s_integer (s_uint ++ s_int) = true /\ set_eqb s_real (s_float ++ s_integer) = true /\
  disjoint s_bool s_num = true /\ disjoint s_key s_num = true /\ disjoint s_bool s_key = true /\
  disjoint s_float s_complex = true /\ disjoint s_uint s_int = true /\ disjoint s_float s_integer = true /\
  forallb (fun p => mem (snd p) s_num) precision_classes = true /\ NoDup (map snd precision_classes).
Proof.
  repeat split; try (vm_compute; reflexivity).
  assert (E : nodup string_dec (map snd precision_classes) = map snd precision_classes) by (vm_compute; reflexivity).
  rewrite <- E. apply NoDup_nodup.
Qed.

Theorem extract_numpy_jax n r : extract_name (mkfacets (Some n) None None None r) = NName n.
Proof. reflexivity. Qed.
Theorem extract_struct n s r : extract_name (mkfacets (Some n) (Some s) None None r) = NName s.
Proof. reflexivity. Qed.
Theorem extract_tensorflow n r : extract_name (mkfacets None None (Some (Some n)) None r) = NName n.
Proof. reflexivity. Qed.
Theorem extract_duck_string s r : extract_name (mkfacets None None None (Some s) r) = NName s.
Proof. reflexivity. Qed.
Theorem extract_torch_style : extract_name (mkfacets None None None None "torch.float32") = NName "float32".
Proof. reflexivity. Qed.

(* the derivative of a pattern by a whole prefix *)
Fixpoint derivs (r : re) (p : string) : re :=
  match p with EmptyString => r | String c p' => derivs (deriv c r) p' end.
Definition is_empty (s : string) : bool := match s with EmptyString => true | _ => false end.

(* a category given as one string or pattern is the one-element tuple (the normalisation in __init_subclass__ itself is
   not modelled) *)
Theorem user_category_single_is_singleton p name : cat_accepts (Some [p]) name = pat_matches name p.
Proof. cbn. now rewrite orb_false_r. Qed.

Example re_examples :
  let float_any := RCat (RChr "f") (RCat (RChr "l") (RCat (RChr "o") (RCat (RChr "a") (RCat (RChr "t") (RStar RAny))))) in
  let int8_end := RCat (RChr "i") (RCat (RChr "n") (RCat (RChr "t") (RCat (RChr "8") REnd))) in
  let int8 := RCat (RChr "i") (RCat (RChr "n") (RCat (RChr "t") (RChr "8"))) in
  map (re_match float_any) ["float32"; "float"; "bfloat16"; "floa"] = [true; true; false; false] /\
  map (re_match int8_end) ["int8"; "int80"; "uint8"] = [true; false; false] /\
  map (re_match int8) ["int8"; "int80"; "uint8"] = [true; true; false].
Proof. vm_compute. repeat split. Qed.

(* evaluation entry points for the correspondence check *)
Definition vchar (v : verdict) : string := match v with Acc => "1" | Rej => "0" | Raise _ => "E" end.
Definition run_builtin (f : facets) : string :=
  (show_nameres (extract_name f) ++ " " ++
  sep_concat "," (map (fun kv => fst kv ++ "=" ++ vchar (accepts_facets (as_pats (snd kv)) f)) category_table))%string.
Definition run_user (pats : list dpat) (names : list string) : string :=
  sep_concat "" (map (fun n => if cat_accepts (Some pats) n then "1" else "0") names).
