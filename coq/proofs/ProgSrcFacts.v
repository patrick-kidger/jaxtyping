(* ProgSrcFacts.v -- with the try/finally read from the source the parametrised interpreter is model/Prog.v's, hence every
   block restores the caller's bindings (props/C05.v; there also: without it a call whose body raises leaves its context on the stack). *)
From JT Require Import model.ProgSrc proofs.ProgFacts.

Section S.
Variables (lbl : option string) (st : symtab).

Lemma run_src_call fin sty binds params body x s :
  run_src fin lbl st (PCall sty binds params body x) s =
  if negb binds then (s, [], Some OtherExc)
  else
    let s0 := push_memo s [] in
    match sty with
    | SNone =>
        match x with
        | XGenerator => let '(s1, ev, sg) := run_list_src fin lbl st body (pop_memo s0) in (s1, ev, sg)
        | _ => finish_src fin (let '(s1, ev, sg) := run_list_src fin lbl st body s0 in
                               (s1, ev, match sg with Some e => Some e | None => exit_sig x end))
        end
    | SNew | SOld =>
        match walk lbl st params s0 with
        | (Acc, s1) =>
            match x with
            | XGenerator => run_list_src fin lbl st body (pop_memo s1)
            | _ => finish_src fin (let '(s2, ev, sg) := run_list_src fin lbl st body s1 in
                                   (s2, ev, match sg with Some e => Some e | None => exit_sig x end))
            end
        | (Rej, s1) => finish_src fin (s1, [], Some OtherExc)
        | (Raise e, s1) => finish_src fin (s1, [], Some (match e with AnnotationErr => AnnotationErr | BaseExc => BaseExc | _ => OtherExc end))
        end
    end.
Proof. reflexivity. Qed.

Lemma run_src_context fin body x s :
  run_src fin lbl st (PContext body x) s =
  (let s0 := push_memo s [] in
   let '(s1, ev, sg) := run_list_src fin lbl st body s0 in
   (pop_memo s1, ev, match sg with Some e => Some e | None => exit_sig x end)).
Proof. reflexivity. Qed.

Lemma run_src_try fin body s :
  run_src fin lbl st (PTry body) s =
  match run_list_src fin lbl st body s with
  | (s1, ev, Some e) => (s1, (ev ++ [EvExc e])%list, None)
  | r => r
  end.
Proof. reflexivity. Qed.

Lemma finish_src_true r : finish_src true r = (let '(s1, ev, sg) := r in (pop_memo s1, ev, sg)).
Proof. destruct r as [[s1 ev] [e|]]; reflexivity. Qed.

Lemma run_src_true_is_run_both :
  (forall p s, run_src true lbl st p s = run lbl st p s) /\ (forall l s, run_list_src true lbl st l s = run_list lbl st l s).
Proof.
  apply prog_ind_both; try reflexivity.
  - intros sty b ps body x IH s. rewrite run_src_call, run_call. destruct (negb b); [reflexivity|]. cbv zeta.
    destruct sty.
    1,2: destruct (walk lbl st ps (push_memo s [])) as [[| |e] s1]; try (rewrite finish_src_true; reflexivity).
    all: destruct x; rewrite ?finish_src_true, IH; reflexivity.
  - intros body x IH s. rewrite run_src_context, run_context. cbv zeta. rewrite IH. reflexivity.
  - intros body IH s. rewrite run_src_try, run_try. rewrite IH. reflexivity.
  - intros p r IHp IHr s. cbn [run_list_src run_list]. rewrite IHp.
    destruct (run lbl st p s) as [[s1 ev1] [e|]]; [reflexivity|]. rewrite IHr. reflexivity.
Qed.

Theorem run_list_src_true_is_run_list l : forall s, run_list_src true lbl st l s = run_list lbl st l s.
Proof. apply run_src_true_is_run_both. Qed.
End S.
