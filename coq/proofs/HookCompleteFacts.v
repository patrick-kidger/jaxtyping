(* HookCompleteFacts.v -- `decorated`: what it means that a def or class carries the decorator; the lemmas from which props/C10.v proves that the
   transformation decorates EVERY def and class, at any nesting depth; and that it loses nothing (xform_injective). *)
From JT Require Import model.HookAst proofs.HookFacts.

Section AllN.
Variable p : ast -> bool.
Fixpoint all_nodes (a : ast) : bool :=
  p a &&
  match a with
  | N c l fs =>
      (fix go (fs : list (string * field)) : bool :=
         match fs with
         | [] => true
         | (n, f) :: r =>
             match f with
             | FScalar _ => true
             | FNode x => all_nodes x
             | FList xs => (fix gol (xs : list ast) : bool := match xs with [] => true | x :: r => all_nodes x && gol r end) xs
             end && go r
         end) fs
  end.
End AllN.

Lemma all_nodes_eq p c l fs : all_nodes p (N c l fs) = p (N c l fs) && forallb (all_nodes p) (children fs).
Proof. cbn [all_nodes]. f_equal. apply forallb_children. Qed.

(* a class carries the decorator FIRST (outermost), a def carries it LAST (innermost), relocated onto the node's own position.
   (A node without a `decorator_list` list is not a def or class of a real tree; nothing is asked of it.) *)
Definition decorated (dec : ast) (a : ast) : bool :=
  match a with
  | N c l fs =>
      if String.eqb c "ClassDef" then
        match get_field "decorator_list" fs with Some (FList (d :: _)) => ast_eqb d (relocate dec l) | Some (FList []) => false | _ => true end
      else if String.eqb c "FunctionDef" then
        match get_field "decorator_list" fs with Some (FList d) => match rev d with x :: _ => ast_eqb x (relocate dec l) | [] => false end | _ => true end
      else true
  end.

(* nothing is asked of a tree without def / class *)
Lemma closed_all_decorated dec : forall a, closed a = true -> all_nodes (decorated dec) a = true.
Proof.
  apply closed_ind. intros c l fs Hc IH. rewrite all_nodes_eq. apply andb_true_intro. split.
  - unfold scope_class in Hc. apply orb_false_iff in Hc as [Hc H3]. apply orb_false_iff in Hc as [_ H2]. cbn [decorated]. now rewrite H2, H3.
  - now apply forallb_forall, Forall_forall.
Qed.

Lemma decorated_post_x dec c l fs : decorated dec (N c l (post_x dec l c fs)) = true.
Proof.
  cbn [decorated]. unfold post_x, post.
  destruct (String.eqb c "Module") eqn:Em; [apply String.eqb_eq in Em; now subst c|].
  destruct (String.eqb c "ClassDef"); [|destruct (String.eqb c "FunctionDef"); [|reflexivity]];
    rewrite get_edit_same; destruct (get_field "decorator_list" fs) as [[s|x|d]|]; try reflexivity.
  - apply ast_eqb_refl.
  - rewrite rev_unit. apply ast_eqb_refl.
Qed.

(* nothing is lost: two different modules never transform to the same tree *)
Theorem xform_injective dec t1 t2 : xform dec t1 = xform dec t2 -> t1 = t2.
Proof. intros H. rewrite <- (strip_xform dec t1), <- (strip_xform dec t2). now rewrite H. Qed.

(* non-vacuity: a class holding a method holding a nested def, all three decorated; without the transformation the test fails *)
Definition cx_dec : ast := N "Call" None [("func", FNode (N "Name" None [("id", FScalar "'jaxtyped'")]))].
Definition cx_fn (name : string) (body : list ast) : ast :=
  N "FunctionDef" (Some (3, 4, 5, 6)%Z) [("name", FScalar name); ("body", FList body); ("decorator_list", FList [N "Name" None [("id", FScalar "'staticmethod'")]])].
Definition cx_mod : ast :=
  N "Module" None [("body", FList [N "ClassDef" (Some (1, 0, 9, 9)%Z) [("name", FScalar "'K'"); ("body", FList [cx_fn "'m'" [cx_fn "'inner'" []]]); ("decorator_list", FList [])]])].
Example decorated_nonvacuous :
  all_nodes (decorated cx_dec) (xform cx_dec cx_mod) = true /\ all_nodes (decorated cx_dec) cx_mod = false /\ closed cx_dec = true.
Proof. repeat split; vm_compute; reflexivity. Qed.
