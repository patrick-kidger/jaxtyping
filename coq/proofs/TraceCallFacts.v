(* TraceCallFacts.v -- what C17 is stated with for a whole decorated call: the walk over every annotated argument and the return
   value inside one context, over objects that carry element data and a tracer flag, with the accesses it makes.  The theorems
   are in props/C17.v. *)
From JT Require Import model.Trace.
Open Scope list_scope.

(* the walk of a typechecker over the uses of one call, with the accesses it makes *)
Fixpoint walk_log (lbl : option string) (st : symtab) (us : list (annot * obj)) (s : stack) : (verdict * stack) * list access :=
  match us with
  | [] => ((Acc, s), [])
  | (a, o) :: r =>
      match instancecheck_log false lbl st a o s with
      | ((Acc, s'), l) => let '(x, l') := walk_log lbl st r s' in (x, l ++ l')
      | x => x
      end
  end.

Definition observe_use (u : annot * obj) : annot * value := (fst u, observe (snd u)).

(* jit / vmap / grad / eval_shape: the same call with every argument replaced by a tracer of the same aval *)
Definition as_tracer (u : annot * obj) : annot * obj :=
  (fst u, mkobj (o_inst (snd u)) (o_attrs (snd u)) (o_dtype (snd u)) (o_shape (snd u)) [] true).

(* non-vacuity: two arguments sharing an axis; the second mismatches; tracers of the same avals give the same rejection, the
   same (restored) bindings and a log without AForce *)
Definition cx_use (sh : list Z) (data : list Z) : annot * obj :=
  (mkannot false None (mkdims [DNamed "a" false false; DNamed "b" false false] None) false, mkobj true true "float32" sh data false).
Example walk_nonvacuous :
  let us := [cx_use [2; 3]%Z [1; 2; 3; 4; 5; 6]%Z; cx_use [2; 4]%Z [0; 0; 0; 0; 0; 0; 0; 0]%Z] in
  show_verdict (fst (fst (walk_log None [] us [empty_memo]))) = "rej" /\
  walk_log None [] (map as_tracer us) [empty_memo] = walk_log None [] us [empty_memo] /\
  List.length (snd (walk_log None [] us [empty_memo])) = 6%nat.
Proof. repeat split; vm_compute; reflexivity. Qed.
