(* PurePyTreeFacts.v -- leaf types L without array annotations (int, str, tuples and unions of them): the check is a function of the
   value (`pmatch`), flattening cuts at the topmost matching subtrees (`leaves_of`), and a structure-less PyTree body decides
   `all_leaves`; props/C08.v reads off that PyTree[L] accepts exactly the trees all of whose leaves match L, and PyTree[PyTree[L]] = PyTree[L]. *)
From JT Require Import model.PyTreeCheck proofs.BaseFacts proofs.TreeFacts proofs.PyTreeFacts.

Fixpoint pure (l : leafty) : bool :=
  match l with
  | LInt | LStr => true
  | LTuple ls | LUnion ls => (fix go (ls : list leafty) : bool := match ls with [] => true | x :: r => pure x && go r end) ls
  | _ => false
  end.

(* the documented meaning of "x matches L" *)
Fixpoint pmatch (l : leafty) (x : ptree) {struct l} : bool :=
  match l with
  | LInt => match x with Leaf (PInt _) | Leaf (PBool _) => true | _ => false end
  | LStr => match x with Leaf (PStr _) => true | _ => false end
  | LTuple ls =>
      match x with
      | Node KTuple cs | Node (KNamed _) cs =>
          (fix go (ls : list leafty) (cs : list ptree) : bool :=
             match ls, cs with [], [] => true | l1 :: lr, c :: cr => pmatch l1 c && go lr cr | _, _ => false end) ls cs
      | _ => false
      end
  | LUnion ls => (fix go (ls : list leafty) : bool := match ls with [] => false | l1 :: lr => pmatch l1 x || go lr end) ls
  | _ => false
  end.

Definition vb (b : bool) : verdict := if b then Acc else Rej.

Section P.
Variable st : symtab.

(* the local loops of pure and pmatch are forallb, existsb and the pointwise test of TreeFacts *)
Lemma pmatch_tuple ls x :
  pmatch (LTuple ls) x = match x with Node KTuple cs | Node (KNamed _) cs => all2b pmatch ls cs | _ => false end.
Proof. reflexivity. Qed.

Lemma pmatch_union ls x : pmatch (LUnion ls) x = existsb (fun l => pmatch l x) ls.
Proof. reflexivity. Qed.

Lemma tuple_match_pure ls : Forall (fun l => forall x s, leafmatch st l x s = (vb (pmatch l x), s)) ls ->
  forall cs s, tuple_match st ls cs s = (vb (all2b pmatch ls cs), s).
Proof.
  induction 1 as [|l1 lr Hl _ IH]; intros [|c cr] s; cbn [tuple_match all2b]; try reflexivity.
  rewrite Hl. destruct (pmatch l1 c); [apply IH | reflexivity].
Qed.

Lemma union_match_pure x ls : Forall (fun l => forall x s, leafmatch st l x s = (vb (pmatch l x), s)) ls ->
  forall s, union_match st x ls s = (vb (existsb (fun l => pmatch l x) ls), s).
Proof.
  induction 1 as [|l1 lr Hl _ IH]; intros s; cbn [union_match existsb]; [reflexivity|].
  rewrite Hl. destruct (pmatch l1 x); [reflexivity | apply IH].
Qed.

Section Leaves.
Variable p : ptree -> bool.
Fixpoint leaves_of (x : ptree) : list ptree :=
  if p x then [x]
  else match x with Leaf _ => [x] | Node k cs => flat_map leaves_of cs end.
End Leaves.

Lemma leaves_of_eq p x : leaves_of p x = if p x then [x] else match x with Leaf _ => [x] | Node k cs => flat_map (leaves_of p) cs end.
Proof. destruct x; reflexivity. Qed.

Lemma flatten_list_pure isleaf p cs :
  Forall (fun c => forall s, exists d s', flatten_with isleaf c s = (Some (leaves_of p c, d), s', None)) cs ->
  forall s, exists ds s', flatten_list isleaf cs s = (Some (flat_map (leaves_of p) cs, ds), s', None).
Proof.
  induction 1 as [|c r Hc _ IH]; intros s; cbn [flatten_list flat_map]; [repeat eexists|].
  destruct (Hc s) as (d & s1 & ->). destruct (IH s1) as (ds & s2 & ->). repeat eexists.
Qed.

(* flattening with an is_leaf whose verdict is a function of the node only (whatever it does to the store):
   the leaves are the topmost subtrees that match, else the non-container objects *)
Lemma flatten_pure isleaf p :
  (forall x s, fst (isleaf x s) = vb (p x)) ->
  forall x s, exists d s', flatten_with isleaf x s = (Some (leaves_of p x, d), s', None).
Proof.
  intros Hv. induction x as [a|k cs IH] using tree_ind'; intros s; rewrite flatten_with_eq, leaves_of_eq.
  (* the leaf test answers p; a match is a leaf, and so is a non-container object *)
  all: destruct (isleaf _ s) as [vd s1] eqn:E; apply (f_equal fst) in E; rewrite Hv in E; cbn [fst] in E; subst vd.
  all: destruct (p _); cbn [vb]; try (now repeat eexists).
  destruct (flatten_list_pure _ _ _ IH s1) as (ds & s2 & ->). repeat eexists.
Qed.

Lemma leaf_loop_pure ischeck p :
  (forall x s, fst (ischeck x s) = vb (p x)) ->
  forall lv i s, fst (leaf_loop ischeck None lv i s) = vb (forallb p lv).
Proof.
  intros Hv. induction lv as [|x r IH]; intros i s; [reflexivity|].
  cbn [leaf_loop forallb]. specialize (Hv x s). destruct (ps_path s), (ischeck x s) as [vd s1]; cbn in Hv; subst vd;
    (destruct (p x); [apply IH | reflexivity]).
Qed.

(* a structure-less PyTree[l] whose leaf functions have store-independent verdicts: pf while flattening, pc in the loop *)
Lemma pytree_body_pure l pf pc x s :
  (forall y s, fst (flat_fn st l y s) = vb (pf y)) -> (forall y s, fst (check_fn st l y s) = vb (pc y)) ->
  fst (pytree_body st l None x s) = vb (forallb pc (leaves_of pf x)).
Proof.
  intros Hf Hc. destruct (flatten_pure _ _ Hf x (with_flat s true)) as (d & s1 & Hfl).
  erewrite pytree_body_run; [| exact Hfl | reflexivity | apply surjective_pairing]. apply (leaf_loop_pure _ _ Hc).
Qed.

Definition is_none (x : ptree) : bool := match x with Node KNone [] => true | _ => false end.

Lemma leafmatch_pytree_none l sopt x s :
  leafmatch st (LPyTree l sopt) x s = if is_none x then (Acc, s) else pytree_body st l sopt x s.
Proof. rewrite leafmatch_pytree. destruct x as [|[] []]; reflexivity. Qed.

Lemma pure_not_any l : pure l = true -> flat_fn st l = leafmatch st l /\ check_fn st l = leafmatch st l.
Proof. destruct l; try discriminate; auto. Qed.

(* None matches no pure leaf type: it is never a leaf, it is a node without leaves *)
Lemma pmatch_none l : pure l = true -> pmatch l (Node KNone []) = false.
Proof.
  induction l as [| | |ls IH|ls IH|a| |l sopt IH] using leafty_ind'; intros Hp; try discriminate; try reflexivity.
  change (forallb pure ls = true) in Hp. rewrite pmatch_union. apply (Forall_guard _ _ _ IH) in Hp. clear IH.
  induction Hp as [|l1 lr Hl _ IHlr]; [reflexivity|]. cbn [existsb]. now rewrite Hl.
Qed.

(* what a structure-less PyTree check with leaf test p decides *)
Definition all_leaves (p : ptree -> bool) (x : ptree) : bool := forallb p (leaves_of p x).

Lemma all_leaves_eq p x :
  all_leaves p x = p x || match x with Leaf _ => false | Node _ cs => forallb (all_leaves p) cs end.
Proof. exact (forallb_greedy_cut p (leaves_of p) (leaves_of_eq p) x). Qed.

Lemma all_leaves_none p x : is_none x || all_leaves p x = all_leaves p x.
Proof. destruct x as [|[] []]; try reflexivity. rewrite all_leaves_eq. symmetry. apply orb_true_r. Qed.

(* cutting at the topmost subtrees that are themselves acceptable, then testing those, decides the same thing *)
Lemma all_leaves_nested p : forall x, all_leaves (all_leaves p) x = all_leaves p x.
Proof.
  induction x as [a|k cs IH] using tree_ind'; rewrite (all_leaves_eq (all_leaves p)); [apply orb_false_r|].
  replace (forallb (all_leaves (all_leaves p)) cs) with (forallb (all_leaves p) cs).
  - rewrite (all_leaves_eq p (Node k cs)). now destruct (p (Node k cs)), (forallb (all_leaves p) cs).
  - induction IH as [|c r Hc _ IHr]; [reflexivity|]. cbn [forallb]. now rewrite Hc, IHr.
Qed.

End P.
