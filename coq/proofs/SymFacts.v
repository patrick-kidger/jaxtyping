(* SymFacts.v -- when the evaluation of a symbolic axis ends in a NameError (which the check turns into AnnotationError: props/C01.v),
   some name it mentions is not bound (yet); the converse fails when another exception comes first, as in `1//0 + n` (C01). *)
From JT Require Import model.Check.

Fixpoint vars (e : expr) : list string :=
  match e with
  | EInt _ | EArg _ | ERaise _ => []
  | EVar n => [n]
  | ENeg a => vars a
  | EBin _ a b | EMin a b | EMax a b => vars a ++ vars b
  end.
Fixpoint argrefs (e : expr) : list string :=
  match e with
  | EInt _ | EVar _ | ERaise _ => []
  | EArg n => [n]
  | ENeg a => argrefs a
  | EBin _ a b | EMin a b | EMax a b => argrefs a ++ argrefs b
  end.

Lemma stage1_nameerr args e : stage1 args e = Some ENameErr -> Exists (fun n => aget args n = None) (argrefs e).
Proof.
  induction e as [z|n|n|b|a IHa|op a IHa b IHb|a IHa b IHb|a IHa b IHb]; cbn; try discriminate; auto.
  (* the three binary forms *)
  3-5: rewrite Exists_app; destruct (stage1 args a); auto.
  - destruct (aget args n) eqn:E; [discriminate | auto].
  - destruct b; discriminate.
Qed.

Lemma apply_op_not_nameerr op x y : apply_op op x y <> ENameErr.
Proof. destruct op; cbn; destruct (y =? 0)%Z; discriminate. Qed.

Lemma unbound_app {A} (P Q : A -> Prop) l1 l2 m1 m2 :
  (Exists P l1 \/ Exists Q m1) \/ (Exists P l2 \/ Exists Q m2) -> Exists P (l1 ++ l2) \/ Exists Q (m1 ++ m2).
Proof. rewrite !Exists_app. tauto. Qed.

Lemma stage2_nameerr sm args e : stage2 sm args e = ENameErr ->
  Exists (fun n => aget sm n = None) (vars e) \/ Exists (fun n => aget args n = None) (argrefs e).
Proof.
  induction e as [z|n|n|b|a IHa|op a IHa b IHb|a IHa b IHb|a IHa b IHb]; cbn; try discriminate.
  (* the three binary forms: the name error comes from an operand; only EBin could produce one itself, and does not (last bullet) *)
  5-7: destruct (stage2 sm args a); try discriminate; [destruct (stage2 sm args b); try discriminate|];
       try solve [intros E; apply unbound_app; auto].
  - destruct (aget sm n) eqn:E; [discriminate | auto].
  - destruct (aget args n) eqn:E; [discriminate | auto].
  - destruct b; discriminate.
  - destruct (stage2 sm args a); try discriminate. auto.
  - intros H. destruct (apply_op_not_nameerr _ _ _ H).
Qed.

Lemma stage1_bound args e : (forall n, In n (argrefs e) -> aget args n <> None) -> stage1 args e <> Some ENameErr.
Proof. intros H E. apply stage1_nameerr, Exists_exists in E as [n [Hi Hn]]. exact (H n Hi Hn). Qed.
