(* C12 -- a check's verdict never depends on earlier, unrelated activity in the process.
   State beyond the context stack: the flatten mode and the '?'-leaf position (model/PyTreeCheck.v: ps_flat,
   ps_path) and the per-annotation-object transparency switch (a_skip).  Faults -- exceptions of class Exception
   or BaseException raised by user code during a check (array attributes, custom flatteners, leaf
   __instancecheck__, symbolic expressions) -- are the `Raise e` outcomes of the leaf / is_leaf functions. *)
From JT Require Import model.PyTreeCheck proofs.PyTreeFacts.
Open Scope string_scope.

(* after ANY check of any leaf type on any value from a store with the mode off -- whether it accepts, rejects or
   raises (any class), wherever the fault occurs -- the flatten mode is off again *)
Theorem C12_flatten_mode_never_outlives_a_check : forall st l x s vd s',
  leafmatch st l x s = (vd, s') -> ps_flat s = false -> ps_flat s' = false.
Proof.
  intros st l x s vd s'.
  apply (leafmatch_keeps st (fun s => ps_flat s = false)); [intros; now rewrite set_top_flat | intros l0 sopt _; apply body_flat].
Qed.
Print Assumptions C12_flatten_mode_never_outlives_a_check.

(* ... and no '?'-leaf position is left behind *)
Theorem C12_leaf_position_never_outlives_a_check : forall st l x s vd s',
  leafmatch st l x s = (vd, s') -> ps_path s = None -> ps_path s' = None.
Proof.
  intros st l x s vd s'.
  apply (leafmatch_keeps st (fun s => ps_path s = None)); [intros; now rewrite set_top_path | intros l0 sopt Ff _; exact (body_path st l0 sopt Ff)].
Qed.
Print Assumptions C12_leaf_position_never_outlives_a_check.

(* ... and the contexts of the callers are untouched (C05) *)
Theorem C12_check_touches_top_context_only : forall st l x s vd s',
  leafmatch st l x s = (vd, s') -> same_below s s'.
Proof. exact leafmatch_frame. Qed.
Print Assumptions C12_check_touches_top_context_only.

(* the verdict of an array check is a function of the value, the annotation, the current context's bindings and
   those two flags -- nothing else in the store matters *)
Theorem C12_probe_is_function_of_context : forall st a v s1 s2,
  top_frame s1 = top_frame s2 -> (ps_stack s1 = [] <-> ps_stack s2 = []) ->
  ps_flat s1 = ps_flat s2 -> ps_path s1 = ps_path s2 ->
  fst (arr_check st a v s1) = fst (arr_check st a v s2).
Proof. intros st a v s1 s2 Ht _ Hf Hp. rewrite !arr_check_eq, Ht, Hf, Hp. now destruct (instancecheck _ _ st a v _). Qed.
Print Assumptions C12_probe_is_function_of_context.

(* the exception to the property on the current code (known finding F-C12-transparent-alias): an annotation object
   that has been made transparent accepts everything *)
Theorem C12_transparent_refuted : forall st a v s, a_skip a = true -> fst (arr_check st a v s) = Acc.
Proof. intros st a v s H. rewrite arr_check_eq. unfold instancecheck. now rewrite H. Qed.
Print Assumptions C12_transparent_refuted.

(* the model resets the flatten mode and the '?'-leaf position on EVERY exit of the region that set them; that is what the
   source does exactly when each set_...() is bracketed by try/finally clear_...() -- read from the AST (gen/Brackets.v) *)
From JT Require Import gen.Brackets.
Theorem C12_transient_state_is_bracketed_in_the_source :
  flatten_flag_protected = true /\ treepath_protected = true /\ bracket_notes = [].
Proof. repeat split; reflexivity. Qed.
Print Assumptions C12_transient_state_is_bracketed_in_the_source.

(* the '?'-leaf position with its try/finally bracket as a parameter (model/SourceShape.v): instantiated with what the
   source says now the PyTree check IS the model's and leaves no position and no flatten mode behind; without the
   finally a structured tree whose k-th leaf does not match leaves the position set (model witness) *)
From JT Require Import model.SourceShape.
Theorem C12_check_as_in_source_is_the_model : forall st l sopt x s,
  pytree_check_flags st treepath_protected l sopt x s = leafmatch st (LPyTree l sopt) x s.
Proof.
  (* with the finally the two bodies differ in where their `let`s stand only *)
  intros st l sopt x s. rewrite leafmatch_pytree. reflexivity.
Qed.
Print Assumptions C12_check_as_in_source_is_the_model.

Theorem C12_check_as_in_source_resets_transient_state : forall st l sopt x s vd s',
  pytree_check_flags st treepath_protected l sopt x s = (vd, s') ->
  (ps_flat s = false -> ps_flat s' = false) /\ (ps_path s = None -> ps_path s' = None).
Proof.
  intros st l sopt x s vd s'. rewrite C12_check_as_in_source_is_the_model. intros H.
  split; [eapply C12_flatten_mode_never_outlives_a_check | eapply C12_leaf_position_never_outlives_a_check]; exact H.
Qed.
Print Assumptions C12_check_as_in_source_resets_transient_state.

(* without the finally around the leaf loop: a structured tree whose second leaf does not match leaves the '?'-leaf
   position SET *)
Theorem C12_leaf_position_without_finally_refuted : exists st l sopt x s vd s',
  pytree_check_flags st false l sopt x s = (vd, s') /\ ps_path s = None /\ ps_path s' <> None.
Proof.
  exists [], (LArr (AC None "a")), (Some "T"),
         (Node KTuple [Leaf (PArr (mkvalue true true "float32" [3]%Z)); Leaf (PArr (mkvalue true true "float32" [4]%Z))]),
         (mkps [(empty_memo, [])] None false).
  eexists. eexists. split; [vm_compute; reflexivity|]. split; [reflexivity | discriminate].
Qed.
Print Assumptions C12_leaf_position_without_finally_refuted.

(* the accessors of the '?'-leaf position and of the flatten mode, as regenerated from jaxtyping/_storage.py on every run
   (gen/StorageSrc.v interpreted by model/SL.v), read and write exactly the ps_path / ps_flat components the theorems above
   speak about *)
From JT Require Import model.SL gen.StorageSrc proofs.SLFacts.
Theorem C12_transient_state_accessors_as_in_source : forall s, wf_cells s ->
  (forall r s', run_acc storage_src "clear_treepath_memo" [] s = Some (r, s') ->
     r = SRVal SVNone /\ abs_store s' = with_path (abs_store s) None /\ wf_cells s') /\
  (forall r s', run_acc storage_src "get_treepath_memo" [] s = Some (r, s') ->
     s' = s /\ r = match ps_path (abs_store s) with Some p => SRVal (SVStr p) | None => SRExn XAnnotation end) /\
  (forall (b : bool) r s', run_acc storage_src (if b then "set_treeflatten_memo" else "clear_treeflatten_memo") [] s = Some (r, s') ->
     r = SRVal SVNone /\ abs_store s' = with_flat (abs_store s) b /\ wf_cells s') /\
  (forall r s', run_acc storage_src "get_treeflatten_memo" [] s = Some (r, s') ->
     s' = s /\ r = SRVal (SVBool (ps_flat (abs_store s)))).
Proof.
  intros s W. rewrite !run_acc_storage. split; [|split; [|split]].
  - intros r s'. rewrite clear_treepath_memo_spec. intros [= <- <-]. refine (conj eq_refl (conj eq_refl _)). apply wf_with_pathv; auto.
  - intros r s'. rewrite get_treepath_memo_spec. destruct W as [[E|[E|[p E]]] _]; unfold abs_store; cbn; rewrite E;
      intros [= <- <-]; split; reflexivity.
  - intros b r s'. destruct b; rewrite run_acc_storage; [rewrite set_treeflatten_memo_spec | rewrite clear_treeflatten_memo_spec];
      intros [= <- <-]; refine (conj eq_refl (conj eq_refl _)); apply wf_with_flatv, W.
  - intros r s'. rewrite get_treeflatten_memo_spec. destruct W as [_ [E|[b E]]]; unfold abs_store; cbn; rewrite E;
      intros [= <- <-]; split; reflexivity.
Qed.
Print Assumptions C12_transient_state_accessors_as_in_source.

(* the flatten bracket of _MetaPyTree._check, AS REGENERATED FROM THE SOURCE (gen/StorageSrc.v, model/SL.v): whatever
   jtu.tree_flatten and the leaf predicate do (`ext` arbitrary), they run with the flag on and the flag is off afterwards,
   on normal completion and on every exception *)
From JT Require Import proofs.SLWalkFacts.
Theorem C12_flatten_bracket_as_in_source : forall ext obj s,
  wf_cells s ->
  exists r s', run_ext ext walk_src "flatten_bracket" [obj] s = Some (r, s') /\
    let s0 := with_flatv s (SVBool true) in
    abs_store s0 = with_flat (abs_store s) true /\
    abs_store s' = with_flat (abs_store (snd (ext "tree_flatten" [obj] s0))) false /\
    ps_flat (abs_store s') = false /\
    (forall x, fst (ext "tree_flatten" [obj] s0) = SRExn x -> r = SRExn x).
Proof. exact flatten_bracket_as_in_source. Qed.
Print Assumptions C12_flatten_bracket_as_in_source.
