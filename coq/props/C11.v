(* C11 -- the hook instruments exactly the named packages, only while installed.
   Model: model/HookScope.v.  gen/HookConsts.v carries the test of should_instrument as written in the source. *)
From JT Require Import model.HookScope gen.HookConsts proofs.BaseFacts proofs.HookScopeFacts.
Open Scope string_scope.

Theorem C11_source_test_unchanged :
  should_instrument_tests = ["module_name == module or module_name.startswith(module + '.')"].
Proof. reflexivity. Qed.
Print Assumptions C11_source_test_unchanged.

(* equal to one of the names, or beneath one of them as a LIST OF DOTTED COMPONENTS *)
Theorem C11_should_instrument_spec : forall names m,
  should_instrument names m = true <-> exists n, In n names /\ is_list_prefix (comps n) (comps m) = true.
Proof. intros names m. unfold should_instrument. rewrite existsb_exists. now setoid_rewrite matches_name_spec. Qed.
Print Assumptions C11_should_instrument_spec.

(* a first import takes the checker of the FIRST live hook that matches (= the most recently installed) *)
Theorem C11_first_import_takes_first_live_hook : forall s m,
  aget (loaded s) m = None -> aget (loaded (import_one s m)) m = Some (first_match (meta s) m).
Proof. intros s m H. unfold import_one. rewrite H. cbn. apply aget_aset_same. Qed.
Print Assumptions C11_first_import_takes_first_live_hook.

(* which checker that is: of the first hook of the list whose names cover the module; none if no hook does *)
Theorem C11_first_match_spec : forall hs m,
  (first_match hs m = None /\ forall h, In h hs -> should_instrument (h_names h) m = false) \/
  (exists pre h post, hs = (pre ++ h :: post)%list /\ first_match hs m = Some (h_chk h) /\ should_instrument (h_names h) m = true /\
                      forall h', In h' pre -> should_instrument (h_names h') m = false).
Proof.
  intros hs m. induction hs as [|h r IH]; [left; split; [reflexivity | intros h []]|]. cbn [first_match].
  destruct (should_instrument (h_names h) m) eqn:E.
  - right. exists [], h, r. repeat split; auto. intros h' [].
  - destruct IH as [[H1 H2]|[pre [h0 [post [H1 [H2 [H3 H4]]]]]]].
    + left. split; [assumption|]. intros h' [<-|Hi]; auto.
    + right. exists (h :: pre), h0, post. subst r. repeat split; auto. intros h' [<-|Hi]; auto.
Qed.
Print Assumptions C11_first_match_spec.

Theorem C11_loaded_module_never_changes : forall ops s x t,
  aget (loaded s) x = Some t -> aget (loaded (hrun ops s)) x = Some t.
Proof. intros ops s x t. apply (fold_left_invariant (fun s => aget (loaded s) x = Some t)). intros s' o. apply hstep_keeps. Qed.
Print Assumptions C11_loaded_module_never_changes.

Theorem C11_no_hook_loads_unmodified : forall s m,
  meta s = [] -> aget (loaded s) m = None -> aget (loaded (import_one s m)) m = Some None.
Proof. intros s m Hm H. rewrite (C11_first_import_takes_first_live_hook s m H), Hm. reflexivity. Qed.
Print Assumptions C11_no_hook_loads_unmodified.

(* for every history of install / uninstall / import operations: handles stay unique, and uninstall(id)
   removes exactly the hook with that handle -- all others stay live *)
Theorem C11_after_uninstall : forall ops id,
  let s := hrun ops hs0 in
  forall h, In h (meta (hstep s (Uninstall id))) <-> In h (meta s) /\ h_id h <> id.
Proof. intros ops id s h. apply remove_first_id_spec. exact (proj1 (hinv_run ops hs0 hinv0)). Qed.
Print Assumptions C11_after_uninstall.

Theorem C11_uninstall_idempotent : forall ops id,
  let s := hrun ops hs0 in meta (hstep (hstep s (Uninstall id)) (Uninstall id)) = meta (hstep s (Uninstall id)).
Proof. intros ops id s. cbn. apply uninstall_idempotent. apply (hinv_run ops hs0 hinv0). Qed.
Print Assumptions C11_uninstall_idempotent.

(* the other two front ends (model/HookFront.v) *)
From JT Require Import model.HookFront proofs.HookFrontFacts.

(* `--jaxtyping-packages=v`: the names installed and the checker are exactly the comma-separated, stripped items
   of v, the last one being the checker; none of the names was imported before *)
Theorem C11_pytest_option_items : forall imported v names chk,
  pytest_configure imported v = PInstall names chk ->
  v <> "" /\ (names ++ [chk])%list = pytest_items v /\ forall n, In n names -> ~ In n imported.
Proof. intros imported v names chk. apply pytest_configure_spec. Qed.
Print Assumptions C11_pytest_option_items.

(* written by a user as names and a checker, each optionally padded with whitespace and joined with commas, the
   option is install_import_hook(names, checker) followed by the session's imports -- so the scope theorems
   above apply to it unchanged *)
Theorem C11_pytest_option_is_install : forall preload ps pc imports,
  Forall good_item (ps ++ [pc]) -> join_on ","%char (map pad (ps ++ [pc])) <> "" ->
  (forall n, In n (map core ps) -> ~ In n (akeys (loaded (hrun (map Import preload) hs0)))) ->
  pytest_run preload (join_on ","%char (map pad (ps ++ [pc]))) imports =
  Some (hrun (Install (map core ps) (Some (core pc)) :: map Import imports) (hrun (map Import preload) hs0)).
Proof.
  intros preload ps pc imports Hall Hne Hfresh. unfold pytest_run.
  rewrite (proj2 (pytest_configure_spec _ _ (map core ps) (core pc))); [reflexivity|].
  split; [exact Hne|]. split; [|exact Hfresh].
  rewrite pytest_items_of_padded; [now rewrite map_app | destruct ps; discriminate | exact Hall].
Qed.
Print Assumptions C11_pytest_option_is_install.

(* a name that is already imported makes the configuration fail, naming exactly those *)
Theorem C11_pytest_already_imported : forall imported v bad,
  pytest_configure imported v = PAlready bad ->
  bad <> [] /\ forall n, In n bad <-> In n (removelast (pytest_items v)) /\ In n imported.
Proof.
  intros imported v bad. unfold pytest_configure. destruct (String.eqb v ""); [discriminate|].
  destruct (filter _ _) eqn:F; [discriminate|]. intros H. injection H as <-. split; [discriminate|].
  intros n. now rewrite <- F, filter_In, existsb_eqb_In.
Qed.
Print Assumptions C11_pytest_already_imported.

Example C11_pytest_option_nonvacuous :
  Forall good_item [("", "foo", " "); (" ", "bar.baz", ""); ("", "typeguard.typechecked", "")] /\
  show_pytest ["zed"] "foo , bar.baz,typeguard.typechecked" ["foo.a"; "foobar"; "bar.baz.q"; "bar"] =
  "zed=plain,foo=hooked:typeguard.typechecked,foo.a=hooked:typeguard.typechecked,foobar=plain,bar=plain,bar.baz=hooked:typeguard.typechecked,bar.baz.q=hooked:typeguard.typechecked" /\
  show_pytest ["foo.a"] "foo,x.y" [] = "already-imported".
Proof. split; [repeat constructor | split; vm_compute; reflexivity]. Qed.

(* str.strip as modelled removes whitespace only, and all of it at both ends *)
Theorem C11_strip_only_removes_whitespace : forall s, exists w1 w2,
  all_ws w1 = true /\ all_ws w2 = true /\ s = w1 ++ pystrip s ++ w2.
Proof.
  intros s. destruct (lstrip_split s) as [w1 [H1 E1]]. destruct (rstrip_split (lstrip s)) as [w2 [H2 E2]].
  exists w1, w2. split; [exact H1|]. split; [exact H2|]. unfold pystrip. rewrite <- E2. exact E1.
Qed.
Print Assumptions C11_strip_only_removes_whitespace.

(* the IPython magic: for every history of magics, other extensions' transformers and cells, every cell is
   instrumented by exactly the checker of the latest magic before it (by none before the first magic), and at
   most one jaxtyping transformer is ever active; other transformers are kept, in order *)
Theorem C11_magic_cells : forall ops,
  cells (irun ops is0) = spec_cells ops None /\
  cell_checkers (xfs (irun ops is0)) = opt_list (latest_magic ops None).
Proof. intros ops. exact (magic_run ops is0 None eq_refl). Qed.
Print Assumptions C11_magic_cells.

Theorem C11_magic_keeps_other_transformers : forall ops,
  nonjax (xfs (irun ops is0)) = others_added ops.
Proof. intros ops. exact (magic_keeps_others ops is0). Qed.
Print Assumptions C11_magic_keeps_other_transformers.

(* the name test REGENERATED FROM THE SOURCE:
   translator/tr_pyl_hook.py turns the AST of _JaxtypingFinder.should_instrument into a term of the deep embedding model/PyL.v
   (gen/ShouldInstrumentSrc.v: should_instrument_src); interpreting it computes model/HookScope.v's should_instrument for every
   list of hook names and every module name -- so C11_should_instrument_spec above (equal to a name, or beneath one as a
   list of dotted components) is a theorem about what the source says now *)
From JT Require Import model.PyL gen.ShouldInstrumentSrc proofs.PyLHookFacts.
Theorem C11_should_instrument_source_refines_model : forall lbl st call names m env,
  env "self" = Some (VFinder names) -> env "module_name" = Some (VS m) ->
  exists env2, run_body_with call lbl st should_instrument_src env = OReturn (VB (should_instrument names m)) env2.
Proof. exact should_instrument_src_refines_model. Qed.
Print Assumptions C11_should_instrument_source_refines_model.
