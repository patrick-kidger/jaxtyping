(* C20 -- annotations survive pickling and copying with their meaning intact.
   Model: model/Annot.v -- `built` is what an annotation class carries; reduce_rebuild is the copyreg reducer
   followed by the rebuild function (fix commit 60b840a in /repo).  copy/deepcopy return the class itself and
   cloudpickle copies the class dictionary by value; since fix commit 67a4bcc the identity-compared markers
   survive that copy, so both are the identity on `built` (validated by the correspondence, not proved:
   pickle / cloudpickle machinery is third-party). *)
From JT Require Import model.Annot proofs.AnnotFacts proofs.AnnotAcceptFacts.
Open Scope string_scope.

(* annotations built directly ... *)
Theorem C20_flat_is_wellformed : forall d A s b,
  (A = TAny \/ exists id, A = TClass id) -> make_array d A s = MBuilt b -> wf_built b.
Proof. intros d A s b HA H. exact (proj1 (make_array_flat_built d A s b HA H)). Qed.
Print Assumptions C20_flat_is_wellformed.

(* ... or by nesting one annotation in another, to any depth, keep "dim_str parses to dims" *)
Theorem C20_nested_is_wellformed : forall d2 b1 s2 b,
  wf_built b1 -> make_array d2 (TNested b1) s2 = MBuilt b -> wf_built b.
Proof.
  intros d2 b1 s2 b W. rewrite (make_array_nested _ _ _ W).
  destruct (parse_dims s2); [|discriminate]. destruct (inter d2 _); [|discriminate].
  destruct (parse_dims (s2 ++ " " ++ b_dimstr b1)) eqn:E; [|discriminate]. intros [= <-]. exact E.
Qed.
Print Assumptions C20_nested_is_wellformed.

(* and every such annotation comes back with the same array type, dims and effective dtypes *)
Theorem C20_reducer_roundtrip : forall b, wf_built b ->
  exists b', reduce_rebuild b = MBuilt b' /\ b_dims b' = b_dims b /\ b_dtypes b' = b_dtypes b /\ b_any b' = b_any b /\
             (b_any b = false -> b_cls b' = b_cls b).
Proof. intros b W. eexists. split; [exact (reduce_rebuild_eq b W)|]. cbn. repeat split. now intros ->. Qed.
Print Assumptions C20_reducer_roundtrip.

(* the reducer as it was before the fix widened nested annotations: Shaped[D[A, "a"], "b"] for a category D of two dtypes *)
Theorem C20_old_reducer_refuted :
  exists b b', wf_built b /\ reduce_rebuild_old b = MBuilt b' /\ b_dtypes b' <> b_dtypes b.
Proof.
  (* the witness is Shaped[Float32or64[A, "a"], "b"] as make_array builds it, in two steps *)
  assert (E : exists b1 b, make_array (Some ["float32"; "float64"]) (TClass 1) "a" = MBuilt b1 /\ make_array None (TNested b1) "b" = MBuilt b)
    by (do 2 eexists; split; vm_compute; reflexivity).
  destruct E as (b1 & b & E1 & E2). exists b. vm_compute in E1. injection E1 as <-. vm_compute in E2. injection E2 as <-.
  eexists. split; [reflexivity|]. split; [reflexivity|]. discriminate.
Qed.
Print Assumptions C20_old_reducer_refuted.

(* "accepting exactly the same values": for every value, symbol table and context, a check against the annotation that comes back
   gives the same verdict AND leaves the same bindings as a check against the original; the result is again well-formed *)
Theorem C20_rebuilt_accepts_exactly_the_same : forall b, wf_built b ->
  exists b', reduce_rebuild b = MBuilt b' /\ wf_built b' /\
             (forall st cls v s, check_built st b' cls v s = check_built st b cls v s) /\
             (forall st x s, accepts_one st (MBuilt b') x s = accepts_one st (MBuilt b) x s).
Proof.
  intros b W. eexists. split; [exact (reduce_rebuild_eq b W)|]. split; [exact W|].
  apply same_meaning; cbn; auto. now intros ->.
Qed.
Print Assumptions C20_rebuilt_accepts_exactly_the_same.

(* ... so it can be sent on any number of times (process to process, pickle of an unpickled annotation) *)
Theorem C20_sent_any_number_of_times : forall n b, wf_built b ->
  exists b', resend n b = MBuilt b' /\ wf_built b' /\
             (forall st cls v s, check_built st b' cls v s = check_built st b cls v s) /\
             (forall st x s, accepts_one st (MBuilt b') x s = accepts_one st (MBuilt b) x s).
Proof.
  induction n as [|n IH]; intros b W; cbn [resend].
  - exists b. repeat split; auto.
  - destruct (C20_rebuilt_accepts_exactly_the_same b W) as [b1 [E [W1 [G1 A1]]]]. rewrite E.
    destruct (IH b1 W1) as [b2 [E2 [W2 [G2 A2]]]]. exists b2. split; [exact E2|]. split; [exact W2|]. split.
    + intros st cls v s. now rewrite G2, G1.
    + intros st x s. now rewrite A2, A1.
Qed.
Print Assumptions C20_sent_any_number_of_times.
