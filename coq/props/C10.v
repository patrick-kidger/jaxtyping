(* C10 -- the import hook only adds decorators: everything else in the module is untouched.
   Model: model/HookAst.v (generic AST with locations and scalar payloads; xform = JaxtypingTransformer
   + fix_missing_locations for the added nodes; strip removes exactly one import at the insertion
   point, the FIRST decorator of every ClassDef and the LAST decorator of every FunctionDef).
   gen/HookConsts.v (decorator template, placement calls, visited classes) is regenerated from source.
   As in the source (no visit_AsyncFunctionDef) an `async def` is not decorated: in the model it is a node of another class. *)
From JT Require Import model.HookAst gen.HookConsts proofs.HookFacts proofs.HookCompleteFacts.
Open Scope string_scope.

(* removing the additions gives back the original tree: every other node, every location, every scalar *)
Theorem C10_strip_xform : forall dec, closed dec = true -> forall t, strip (xform dec t) = t.
Proof. intros dec _. exact (strip_xform dec). Qed.
Print Assumptions C10_strip_xform.

(* the decorator template taken from the source contains no def / class (for every typechecker hash),
   so visiting it again -- as the code does -- changes nothing, and the theorem above applies to it *)
Theorem C10_template_closed : forall h, closed (subst_hash h dec_template) = true.
Proof.
  (* by computation although h is a variable: `closed` reads node classes only, the substitution rewrites scalars and locations *)
  intros h. vm_compute. reflexivity.
Qed.
Print Assumptions C10_template_closed.

Theorem C10_added_nodes_are_fixed_points : forall dec a, closed a = true -> xform dec a = a.
Proof. exact closed_xform_id. Qed.
Print Assumptions C10_added_nodes_are_fixed_points.

(* the import goes after the module's own prefix of __future__ imports and bare constants (docstring),
   which stays in front, unchanged; no import when the module has nothing else *)
Theorem C10_import_position : forall body,
  (exists pre rest, body = (pre ++ rest)%list /\ insert_import body = (pre ++ the_import :: rest)%list /\
      forallb (fun s => is_future_import s || is_const_expr s) pre = true /\
      match rest with s :: _ => is_future_import s || is_const_expr s = false | [] => False end)
  \/ (forallb (fun s => is_future_import s || is_const_expr s) body = true /\ insert_import body = body).
Proof.
  intros body. induction body as [|s r IH]; [right; auto|]. cbn [insert_import forallb].
  destruct (is_future_import s || is_const_expr s) eqn:E.
  - destruct IH as [[pre [rest [H1 [H2 [H3 H4]]]]]|[H1 H2]].
    + left. exists (s :: pre), rest. cbn. rewrite E, H3. subst. rewrite H2. auto.
    + right. rewrite H2. auto.
  - left. exists [], (s :: r). cbn. auto.
Qed.
Print Assumptions C10_import_position.

(* the generated facts about the source the model relies on *)
Theorem C10_source_shape :
  function_placement = "node.decorator_list.append(decorator)" /\
  class_placement = "node.decorator_list.insert(0, decorator)" /\
  transformer_base = ["ast.NodeVisitor"] /\
  transformer_visits = ["visit_ClassDef"; "visit_FunctionDef"; "visit_Module"] /\
  transformer_overrides_generic_visit = false.
Proof. repeat split; reflexivity. Qed.
Print Assumptions C10_source_shape.

(* completeness: in the transformed tree EVERY ClassDef carries the decorator first and EVERY FunctionDef carries it last, at any
   nesting depth (methods, nested defs, defs inside decorators or default values), relocated onto the node's own position *)
Theorem C10_every_def_and_class_decorated : forall dec, closed dec = true -> forall t, all_nodes (decorated dec) (xform dec t) = true.
Proof.
  intros dec Hdec. apply ast_ind'. intros c l fs IH. rewrite xform_eq, all_nodes_eq, decorated_post_x. cbn [andb].
  assert (Hrel : all_nodes (decorated dec) (relocate dec l) = true) by apply closed_all_decorated, closed_relocate, Hdec.
  apply forallb_forall, Forall_forall, Forall_children_post.
  - intros b. apply Forall_insert_import, closed_all_decorated, closed_the_import.
  - intros d Hd. now constructor.
  - intros d Hd. apply Forall_app. auto.
  - rewrite children_map. now apply Forall_map.
Qed.
Print Assumptions C10_every_def_and_class_decorated.

(* ... in particular with the decorator the source builds, for every typechecker hash *)
Theorem C10_every_def_and_class_decorated_with_the_template : forall h t,
  all_nodes (decorated (subst_hash h dec_template)) (xform (subst_hash h dec_template) t) = true.
Proof. intros h t. apply C10_every_def_and_class_decorated, C10_template_closed. Qed.
Print Assumptions C10_every_def_and_class_decorated_with_the_template.

(* nothing of the module is lost or merged: different modules transform to different trees; class and position of a node are kept *)
Theorem C10_transformation_is_injective : forall dec, closed dec = true -> forall t1 t2, xform dec t1 = xform dec t2 -> t1 = t2.
Proof. intros dec _. exact (xform_injective dec). Qed.
Print Assumptions C10_transformation_is_injective.

Theorem C10_node_class_and_position_kept : forall dec t, cls_of (xform dec t) = cls_of t /\ loc_of (xform dec t) = loc_of t.
Proof. exact root_kept. Qed.
Print Assumptions C10_node_class_and_position_kept.
