(* C04 -- a failed or raising array check binds nothing; a passing check is idempotent.
   (The PyTree half, C04_pytree_reject_restores below, is stated again as C08_reject_restores in props/C08.v.)
   In the model the check mutates the context's dictionaries in place (the returned
   memo of check_shape is the mutated one) and __instancecheck_str__ restores the
   snapshot; these theorems are about the stack that results. *)
From JT Require Import model.Check proofs.CheckFacts proofs.TwoPassFacts model.PyTreeCheck proofs.PyTreeFacts.
Open Scope string_scope.

Theorem C04_reject_or_raise_restores : forall lbl st flat a v s vd s',
  instancecheck flat lbl st a v s = (vd, s') -> vd <> Acc -> s' = s.
Proof. exact instancecheck_not_acc_restores. Qed.
Print Assumptions C04_reject_or_raise_restores.

(* ... although the failed check had made progress: the memo returned by check_shape differs *)
Example C04_partial_progress_exists :
  match parse_dims "a b a" with
  | Ok d => let '(r, m') := check_shape None [] d [2; 3; 4]%Z empty_memo in
            r = CFail /\ single m' = [("a", 2%Z); ("b", 3%Z)]
  | Err _ => False
  end.
Proof. vm_compute. split; reflexivity. Qed.

(* a check that raises after partial progress: user code in a symbolic axis raising a
   BaseException (before the fix commit 6f7f1fa in /repo this left a=3 bound) *)
Example C04_raise_after_progress_restores :
  let a := mkannot false None (mkdims [DNamed "a" false false; DSym "b" false] None) false in
  instancecheck false None [("b", ERaise true)] a (mkvalue true true "float32" [3; 4]%Z) [empty_memo]
  = (Raise BaseExc, [empty_memo]).
Proof. vm_compute. reflexivity. Qed.

Theorem C04_pass_idempotent : forall lbl st flat a v s s',
  wf_dims (a_dims a) ->
  instancecheck flat lbl st a v s = (Acc, s') ->
  instancecheck flat lbl st a v s' = (Acc, s').
Proof. intros lbl st flat a v s s' _. apply instancecheck_idempotent. Qed.
Print Assumptions C04_pass_idempotent.

Theorem C04_variadic_idempotent : forall name bc mid vm vm',
  check_variadic name bc mid vm = (COk, vm') -> check_variadic name bc mid vm' = (COk, vm').
Proof. intros name bc mid vm vm' H. apply (check_variadic_ok_inv _ _ _ _ _ H), vle_refl. Qed.
Print Assumptions C04_variadic_idempotent.

Theorem C04_outside_context_stateless : forall lbl st flat a v vd s',
  instancecheck flat lbl st a v [] = (vd, s') -> s' = [].
Proof. exact instancecheck_stateless. Qed.
Print Assumptions C04_outside_context_stateless.

(* the PyTree half: a tree that is rejected, or whose check raises, at ANY point -- flatten phase,
   structure name, k-th leaf -- leaves the whole context stack (axes and structure names) as it was *)
Theorem C04_pytree_reject_restores : forall st l sopt x s vd s',
  leafmatch st (LPyTree l sopt) x s = (vd, s') -> vd <> Acc -> ps_stack s' = ps_stack s.
Proof. exact pytree_reject_restores. Qed.
Print Assumptions C04_pytree_reject_restores.

Example C04_pytree_kth_leaf :
  let arr sh := Leaf (PArr (mkvalue true true "float32" sh)) in
  let s := mkps [(mkmemo [("x", 5%Z)] [] [], [])] None false in
  leafmatch [] (LPyTree (LArr (AC None "?a b")) (Some "T")) (Node KTuple [arr [2; 9]%Z; arr [3; 9]%Z; arr [4; 8]%Z]) s = (Rej, s).
Proof. vm_compute. reflexivity. Qed.

(* the tie of the rollback to the source's exception-safety structure:
   translator/tr_brackets.py reads from jaxtyping/_array_types.py and _pytree_type.py whether the call of _check_shape /
   _check is wrapped in `except BaseException: set_shape_memo(<four copies taken before>); raise` and whether the mismatch
   branch restores the same copies (gen/Brackets.v).  model/SourceShape.v is the check with that structure as a parameter;
   instantiated with what the source says NOW it restores, and with the structure absent it provably does not. *)
From JT Require Import gen.Brackets model.SourceShape proofs.SourceShapeFacts.

Theorem C04_array_check_as_in_source_is_the_model : forall flat lbl st a v s,
  instancecheck_src array_check_rolls_back flat lbl st a v s = instancecheck flat lbl st a v s.
Proof. exact instancecheck_src_true. Qed.
Print Assumptions C04_array_check_as_in_source_is_the_model.

Theorem C04_array_check_as_in_source_restores : forall flat lbl st a v s vd s',
  instancecheck_src array_check_rolls_back flat lbl st a v s = (vd, s') -> vd <> Acc -> s' = s.
Proof. exact (fun flat lbl st a v s vd s' => instancecheck_src_restores array_check_rolls_back flat lbl st a v s vd s' eq_refl). Qed.
Print Assumptions C04_array_check_as_in_source_restores.

(* without the rollback a rejected check leaves the axes it had matched so far bound *)
Theorem C04_without_rollback_refuted : exists flat lbl st a v s vd s',
  instancecheck_src false flat lbl st a v s = (vd, s') /\ vd <> Acc /\ s' <> s.
Proof.
  exists false, None, [], (AC None "a b a"), (mkvalue true true "float32" [2; 3; 4]%Z), [empty_memo].
  eexists. eexists. split; [vm_compute; reflexivity|]. split; discriminate.
Qed.
Print Assumptions C04_without_rollback_refuted.

Theorem C04_pytree_check_as_in_source_restores : forall st l sopt x s vd s',
  pytree_check_src st pytree_check_rolls_back l sopt x s = (vd, s') -> vd <> Acc -> ps_stack s' = ps_stack s.
Proof. exact (fun st l sopt x s vd s' => pytree_check_src_restores pytree_check_rolls_back st l sopt x s vd s' eq_refl). Qed.
Print Assumptions C04_pytree_check_as_in_source_restores.

Theorem C04_pytree_without_rollback_refuted : exists st l sopt x s vd s',
  pytree_check_src st false l sopt x s = (vd, s') /\ vd <> Acc /\ ps_stack s' <> ps_stack s.
Proof.
  exists [], (LArr (AC None "a")), None,
         (Node KTuple [Leaf (PArr (mkvalue true true "float32" [3]%Z)); Leaf (PArr (mkvalue true true "float32" [4]%Z))]),
         (mkps [(empty_memo, [])] None false).
  eexists. eexists. split; [vm_compute; reflexivity|]. split; discriminate.
Qed.
Print Assumptions C04_pytree_without_rollback_refuted.

(* the second half of the property for PyTrees: repeating a PyTree check that passed -- array leaf type, with or without a
   structure name, '?' axes included, inside a context -- passes again and changes no binding *)
From JT Require Import proofs.IdemFacts.
Theorem C04_pytree_pass_idempotent : forall st a, wf_annot a -> forall sopt x m t r s',
  leafmatch st (LPyTree (LArr a) sopt) x (mkps ((m, t) :: r) None false) = (Acc, s') ->
  leafmatch st (LPyTree (LArr a) sopt) x s' = (Acc, s').
Proof. exact pytree_array_leaves_idempotent. Qed.
Print Assumptions C04_pytree_pass_idempotent.

Example C04_pytree_pass_idempotent_nonvacuous :
  let arr sh := Leaf (PArr (mkvalue true true "float32" sh)) in
  let x := Node KTuple [arr [2; 9]%Z; Node KList [arr [3; 9]%Z]] in
  let s := mkps [(mkmemo [("b", 9%Z)] [] [], [])] None false in
  exists s', leafmatch [] (LPyTree (LArr (AC None "?a b")) (Some "T")) x s = (Acc, s') /\ ps_stack s' <> ps_stack s /\
             leafmatch [] (LPyTree (LArr (AC None "?a b")) (Some "T")) x s' = (Acc, s').
Proof. eexists. split; [vm_compute; reflexivity|]. split; [discriminate | vm_compute; reflexivity]. Qed.

(* the snapshot / roll-back wrapper at the end of _MetaAbstractArray.__instancecheck_str__, AS REGENERATED FROM THE SOURCE on
   every run (gen/StorageSrc.v, interpreted by model/SL.v): whatever cls._check_shape does to the store (`ext` is an arbitrary
   function), a non-empty message or ANY exception leaves the frame the check started from on top; the empty message keeps
   what the shape check bound *)
From JT Require Import model.SL gen.StorageSrc proofs.SLFacts.
Theorem C04_array_rollback_wrapper_as_in_source : forall ext cls obj s,
  wf_top s ->
  exists args,
    let '(r1, s1) := ext "_check_shape" args s in
    exists r' s', run_ext ext rollback_src "array_tail" [cls; obj] s = Some (r', s') /\
      match r1 with
      | SRExn x => r' = SRExn x /\ abs_store s' = set_top (abs_store s1) (top_frame (abs_store s))
      | SRVal v => match array_ok v with
                   | Some true => r' = SRVal v /\ s' = s1
                   | Some false => r' = SRVal v /\ abs_store s' = set_top (abs_store s1) (top_frame (abs_store s))
                   | None => r' = SRExn XOther
                   end
      end.
Proof. exact (fun ext cls obj s W => rollback_wrappers_as_in_source ext cls obj s true W). Qed.
Print Assumptions C04_array_rollback_wrapper_as_in_source.
