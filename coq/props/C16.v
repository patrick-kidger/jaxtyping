(* C16 -- '?' axes are per-leaf-position axes of exactly one structured PyTree.
   A '?name' axis of leaf i of PyTree[..., 'T'] is stored in the single-axis memo under the key
   "(Leaf i in structure T) name" (qkey i T name): _storage.set_treepath_memo / _array_types 156-159. *)
From JT Require Import model.PyTreeCheck proofs.BaseFacts proofs.LabelFacts.
Open Scope string_scope.

(* where the key comes from: a '?' dim under the label of leaf i of structure t *)
Theorem C16_key_of_question_axis : forall i t n,
  dkey (Some (label_of i t)) n true = Some (qkey i t n) /\ dkey (Some (label_of i t)) n false = Some n.
Proof. intros i t n. split; reflexivity. Qed.
Print Assumptions C16_key_of_question_axis.

(* keys are injective in (leaf position, structure string, axis name) ... *)
Theorem C16_keys_injective : forall i j t t' n n',
  nochar ")" t -> nochar ")" t' ->
  qkey i t n = qkey j t' n' -> i = j /\ t = t' /\ n = n'.
Proof.
  intros i j t t' n n' Ht Ht' H. rewrite !qkey_shape in H. apply app_cancel_l in H.
  destruct (split_at_char " " _ _ _ _ (ns_no_space i) (ns_no_space j) H) as [Hij Hrest].
  apply ns_inj in Hij. apply app_cancel_l in Hrest.
  destruct (split_at_char ")" _ _ _ _ Ht Ht' Hrest) as [-> Hn]. inversion Hn. auto.
Qed.
Print Assumptions C16_keys_injective.

(* ... and never equal to a plain axis name *)
Theorem C16_key_never_plain : forall i t n, is_identifier (qkey i t n) = false /\ qkey i t n <> "".
Proof. intros i t n. split; [reflexivity | discriminate]. Qed.
Print Assumptions C16_key_never_plain.

(* hence: different positions (or structures, or names) are independent ... *)
Theorem C16_positions_independent : forall (sm : alist Z) i j t t' n n' v,
  nochar ")" t -> nochar ")" t' -> (i, t, n) <> (j, t', n') ->
  aget (aset sm (qkey i t n) v) (qkey j t' n') = aget sm (qkey j t' n').
Proof.
  intros sm i j t t' n n' v Ht Ht' Hne. rewrite aget_aset. destruct (String.eqb (qkey j t' n') (qkey i t n)) eqn:E; [|reflexivity].
  apply String.eqb_eq in E. destruct (C16_keys_injective _ _ _ _ _ _ Ht' Ht E) as [-> [-> ->]]. contradiction.
Qed.
Print Assumptions C16_positions_independent.

(* ... and a '?' axis never interacts with a plain axis of the same (or any) name *)
Theorem C16_plain_axis_independent : forall (sm : alist Z) i t n v p,
  (is_identifier p = true \/ p = "") ->
  aget (aset sm (qkey i t n) v) p = aget sm p /\ aget (aset sm p v) (qkey i t n) = aget sm (qkey i t n).
Proof.
  intros sm i t n v p Hp. assert (Hne : (p =? qkey i t n) = false).
  { apply String.eqb_neq. intros ->. destruct (C16_key_never_plain i t n) as [Hi He].
    destruct Hp as [H|H]; [now rewrite Hi in H | exact (He H)]. }
  now rewrite !aget_aset, (String.eqb_sym (qkey i t n) p), Hne.
Qed.
Print Assumptions C16_plain_axis_independent.

(* the hypothesis of C16_keys_injective holds of a structure string that is a single name *)
Theorem C16_identifier_has_no_paren : forall s, is_identifier s = true -> nochar ")" s.
Proof.
  intros s. destruct s as [|c r]; [discriminate|]. cbn [is_identifier]. intros H. apply andb_true_iff in H as [Hc Hr].
  apply (all_chars_nochar is_alnum_); [|reflexivity]. cbn [all_chars]. unfold is_alnum_ at 1. now rewrite Hc, Hr.
Qed.
Print Assumptions C16_identifier_has_no_paren.

(* outside a structured PyTree (no label) a '?' axis raises AnnotationError unless excused by #-and-size-1 *)
Theorem C16_outside_raises : forall st args n bc z sm,
  bc && (z =? 1)%Z = false -> dim_step None st args (DNamed n bc true) z sm = SRaise AnnotationErr.
Proof. intros st args n bc z sm H. cbn. now rewrite H. Qed.
Print Assumptions C16_outside_raises.

(* beneath two structured PyTrees: the inner leaf loop finds the label already set *)
Theorem C16_beneath_two_raises : forall ischeck str leaf r i s lbl,
  ps_path s = Some lbl -> leaf_loop ischeck (Some str) (leaf :: r) i s = (Raise AnnotationErr, s).
Proof. intros ischeck str leaf r i s lbl H. cbn. now rewrite H. Qed.
Print Assumptions C16_beneath_two_raises.

(* same position in two trees annotated T must agree; different positions need not *)
Example C16_nonvacuous :
  let arr sh := Leaf (PArr (mkvalue true true "float32" sh)) in
  let s := mkps [(empty_memo, [])] None false in
  let L := LArr (AC None "?n") in
  let '(v1, s1) := leafmatch [] (LPyTree L (Some "T")) (Node KTuple [arr [3]%Z; arr [4]%Z]) s in
  v1 = Acc /\ fst (leafmatch [] (LPyTree L (Some "T")) (Node KTuple [arr [3]%Z; arr [4]%Z]) s1) = Acc /\
  fst (leafmatch [] (LPyTree L (Some "T")) (Node KTuple [arr [4]%Z; arr [3]%Z]) s1) = Rej /\
  show_single (single (fst (top_frame s1))) = "(Leaf 0 in structure T) n=3,(Leaf 1 in structure T) n=4".
Proof. vm_compute. repeat split. Qed.

(* the full usability clause is FALSE of the current code (known finding F-C16-structureless-nested):
   a '?' axis inside a structure-less PyTree nested in the structured one raises *)
Theorem C16_usable_in_structureless_nested_refuted :
  let arr sh := Leaf (PArr (mkvalue true true "float32" sh)) in
  exists x, fst (leafmatch [] (LPyTree (LPyTree (LArr (AC None "?n")) None) (Some "T")) x (mkps [(empty_memo, [])] None false)) = Raise AnnotationErr.
Proof. exists (Node KTuple [Leaf (PArr (mkvalue true true "float32" [3]%Z))]). vm_compute. reflexivity. Qed.
Print Assumptions C16_usable_in_structureless_nested_refuted.

(* outside a structured PyTree no leaf position is set -- also after a check that raised -- because every
   set_treepath_memo is bracketed by try/finally clear_treepath_memo() in the source (gen/Brackets.v) *)
From JT Require Import gen.Brackets.
Theorem C16_leaf_position_is_bracketed_in_the_source : treepath_protected = true.
Proof. reflexivity. Qed.
Print Assumptions C16_leaf_position_is_bracketed_in_the_source.

(* the leaf loop of _MetaPyTree._check (set_treepath_memo(i, structure) / leaf check / clear_treepath_memo(), inside
   try ... finally: clear_treepath_memo()), AS REGENERATED FROM THE SOURCE on every run (gen/StorageSrc.v, interpreted by
   model/SL.v): for every list of leaves and every starting state it computes the model's leaf_loop followed by
   `with_path .. None`, given only that the leaf check outside the fragment simulates the model's leaf check *)
From JT Require Import model.SL gen.StorageSrc proofs.SLFacts proofs.SLWalkFacts.
Theorem C16_leaf_loop_as_in_source_is_the_models_loop : forall ext ischeck leafof,
  (forall v s, wf_cells s ->
     let '(r, s') := ext "is_check_leaftype" [v] s in
     let '(vd, p') := ischeck (leafof v) (abs_store s) in
     r = res_of vd /\ abs_store s' = p' /\ wf_cells s') ->
  forall sv structure lvs s, struct_rel sv structure -> wf_cells s ->
  exists r s', run_ext ext walk_src "leaf_loop" [sv; SVList lvs] s = Some (r, s') /\
    let '(vd, p') := leaf_loop ischeck structure (map leafof lvs) 0 (abs_store s) in
    r = res_of vd /\ abs_store s' = with_path p' None /\ wf_cells s'.
Proof. exact leaf_loop_as_in_source. Qed.
Print Assumptions C16_leaf_loop_as_in_source_is_the_models_loop.
