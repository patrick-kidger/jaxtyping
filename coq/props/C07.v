(* C07 -- on well-typed calls a decorated function is indistinguishable from the original.
   Proved here: the name generation of the synthesised checking functions (model/Synth.v) can never clash,
   whatever the parameters and the function are called; the event trace of a call (model/Config.v:
   wrapper_trace) runs the body exactly once on a well-typed binding call, not at all on an ill-typed or
   non-binding one.  Object identity, functools.wraps and descriptor plumbing are CPython's: validated by
   the correspondence (harness/c07.py), not proved. *)
From JT Require Import model.Synth model.Config proofs.SynthFacts.
Open Scope string_scope.

Theorem C07_gensym_fresh : forall names p, ~ In (gensym names p) names.
Proof. intros names p. destruct (gensym_first_free names p) as (k & _ & -> & H & _). exact H. Qed.
Print Assumptions C07_gensym_fresh.

Theorem C07_gensym_terminates_within_len_names : forall names p, exists i, gensym names p = cand p i /\ (i <= length names)%nat.
Proof. intros names p. destruct (gensym_first_free names p) as (k & Hk & E & _). eauto. Qed.
Print Assumptions C07_gensym_terminates_within_len_names.

(* every generated annotation / default name is different from every parameter name, from the function's name,
   and from every other generated name *)
Theorem C07_scope_injective : forall params n scope,
  NoDup (generated (gen_names scope params n)) /\
  forall g, In g (generated (gen_names scope params n)) -> ~ In g scope /\ ~ In g params.
Proof.
  intros params. induction n as [|n IH]; intros scope; cbn [gen_names]; [split; [constructor | intros g []]|].
  set (a := gensym (scope ++ params) "T"). set (d := gensym ((a :: scope) ++ params) "default").
  pose proof (C07_gensym_fresh (scope ++ params) "T" : ~ In a (scope ++ params)) as Ha.
  pose proof (C07_gensym_fresh ((a :: scope) ++ params) "default" : ~ In d (a :: scope ++ params)) as Hd.
  (* the later names are generated in a scope that holds a and d *)
  destruct (IH (d :: a :: scope)) as [Hnd Hfresh].
  change (generated ((a, d) :: ?l)) with (a :: d :: generated l).
  rewrite !NoDup_cons_iff. cbn [In] in *. rewrite in_app_iff in Ha, Hd. split.
  - repeat split; [intros [->|H%Hfresh] | intros H%Hfresh | exact Hnd]; tauto.
  - intros g [<-|[<-|Hg%Hfresh]]; tauto.
Qed.
Print Assumptions C07_scope_injective.

Theorem C07_def_name_fresh : forall name params, ~ In (def_name false name params) params.
Proof. intros name params. apply C07_gensym_fresh. Qed.
Print Assumptions C07_def_name_fresh.

(* the body runs exactly once on a well-typed binding call, never on an ill-typed or non-binding one *)
Definition body_runs (tr : list event) : nat := length (filter (fun e => match e with EBody => true | _ => false end) tr).
Theorem C07_body_once : forall c,
  (binds c = true /\ params_ok c = true -> body_runs (wrapper_trace false false false c) = 1%nat) /\
  (binds c = false \/ params_ok c = false -> body_runs (wrapper_trace false false false c) = 0%nat).
Proof.
  intros c. unfold wrapper_trace. cbn [orb]. split.
  - intros [-> ->]. destruct (has_ret c), (full_ok c); reflexivity.
  - intros [-> | H]; [reflexivity|]. destruct (binds c); [rewrite H|]; reflexivity.
Qed.
Print Assumptions C07_body_once.

(* the synthesised parameter list *)
From JT Require Import model.Sig proofs.SigFacts.

(* Python reads the generated `def name(<pieces>)` back as the original signature: same names, kinds and
   has-a-default flags in the same order, for every well-formed signature (all five kinds, any defaults) *)
Theorem C07_signature_roundtrip : forall ps, wf_sig ps -> sig_of_pieces (pieces_of_sig ps) = Some ps.
Proof.
  intros ps. intros (pos & pk & vp & ko & vk & -> & H1 & H2 & H3 & H4 & H5 & L3 & L5 & [D3 D5]%Forall_app).
  unfold pieces_of_sig. rewrite !of_kind_blocks by assumption.
  rewrite sig_of_pieces_steps, read_front_ok, read_mid_ok, read_end_ok; trivial.
  - now rewrite !app_assoc.
  - destruct vk as [|? [|]]; exact I.
  - destruct vp as [|? [|]], ko, vk as [|? [|]]; exact I.
Qed.
Print Assumptions C07_signature_roundtrip.

(* the wrapper regenerated from the source (gen/StorageSrc.v: src_wrapped_fn, interpreted by model/SL.v) *)
From JT Require Import model.SL gen.StorageSrc proofs.SLFacts proofs.SLWrapFacts.

(* checking on, the call binds: the decorated call hands back exactly the value or exception that wrapped_fn_impl handed back, and
   wrapped_fn_impl received the caller's args / kwargs objects (`ext` stands for everything outside the wrapper: ANY behaviour) *)
Theorem C07_wrapper_hands_back_the_impl_result :
  forall (ext : extern_t) (a k c f p h i : sval) (s s1 s2 : tls) (hv : sval) (s3 s4 : tls) (b : sval) (s5 : tls) (v : sval) (s6 : tls) (d : dict) (s7 : tls) (r : slres) (s8 : tls),
  ext "config.jaxtyping_disable" [] s = (SRVal (SVBool false), s1) ->
  ext "getattr" [f; SVStr "__no_type_check__"; SVBool false] s1 = (SRVal (SVBool false), s2) ->
  ext "wrapped_fn_holder[0]" [] s2 = (SRVal hv, s3) ->
  ext "getattr" [hv; SVStr "__no_type_check__"; SVBool false] s3 = (SRVal (SVBool false), s4) ->
  ext "param_signature.bind" [a; k] s4 = (SRVal b, s5) ->
  ext "bound.apply_defaults" [] s5 = (SRVal v, s6) ->
  ext "bound.arguments" [] s6 = (SRVal (SVDict d), s7) ->
  ext "wrapped_fn_impl" [a; k; b; new_frame d] (with_stack s7 (Some (stack_or_nil s7 ++ [new_frame d])%list)) = (r, s8) ->
  abs_stack s8 <> [] -> exists s' : tls, run_ext ext wrapped_src "wrapped_fn" [a; k; c; f; p; h; i] s = Some (r, s').
Proof.
  intros ext a k c f p h i s s1 s2 hv s3 s4 b s5 v s6 d s7 r s8 H1 H2 H3 H4 H5 H6 H7 H8 N.
  rewrite wrapped_fn_as_in_source. unfold wrapped_spec, truthy. rewrite H1, H2, H3, H4.
  destruct (checked_call_brackets ext a k s4 b s5 v s6 d s7 H5 H6 H7) as [_ G].
  destruct (G r s8 H8 N) as [s' [E _]]. exists s'. now rewrite E.
Qed.
Print Assumptions C07_wrapper_hands_back_the_impl_result.

(* a call that does not bind to the signature raises what Signature.bind raised (the ordinary TypeError); nothing else ran *)
Theorem C07_nonbinding_call_raises_the_bind_error :
  forall (ext : extern_t) (a k c f p h i : sval) (s s1 s2 : tls) (hv : sval) (s3 s4 : tls) (x : sexn) (s5 : tls),
  ext "config.jaxtyping_disable" [] s = (SRVal (SVBool false), s1) ->
  ext "getattr" [f; SVStr "__no_type_check__"; SVBool false] s1 = (SRVal (SVBool false), s2) ->
  ext "wrapped_fn_holder[0]" [] s2 = (SRVal hv, s3) ->
  ext "getattr" [hv; SVStr "__no_type_check__"; SVBool false] s3 = (SRVal (SVBool false), s4) ->
  ext "param_signature.bind" [a; k] s4 = (SRExn x, s5) -> run_ext ext wrapped_src "wrapped_fn" [a; k; c; f; p; h; i] s = Some (SRExn x, s5).
Proof.
  intros ext a k c f p h i s s1 s2 hv s3 s4 x s5 H1 H2 H3 H4 H5.
  rewrite wrapped_fn_as_in_source. unfold wrapped_spec, truthy, checked_call. now rewrite H1, H2, H3, H4, H5.
Qed.
Print Assumptions C07_nonbinding_call_raises_the_bind_error.

(* checking off in any of the three ways: the decorated call IS the plain call of fn on the caller's objects *)
Theorem C07_wrapper_off_is_the_plain_call :
  forall (ext : extern_t) (a k c f p h i : sval) (s : tls),
  (forall s1 : tls, ext "config.jaxtyping_disable" [] s = (SRVal (SVBool true), s1) -> run_ext ext wrapped_src "wrapped_fn" [a; k; c; f; p; h; i] s = Some (ext "fn" [a; k] s1)) /\
  (forall s1 s2 : tls,
   ext "config.jaxtyping_disable" [] s = (SRVal (SVBool false), s1) ->
   ext "getattr" [f; SVStr "__no_type_check__"; SVBool false] s1 = (SRVal (SVBool true), s2) -> run_ext ext wrapped_src "wrapped_fn" [a; k; c; f; p; h; i] s = Some (ext "fn" [a; k] s2)) /\
  (forall (s1 s2 : tls) (hv : sval) (s3 s4 : tls),
   ext "config.jaxtyping_disable" [] s = (SRVal (SVBool false), s1) ->
   ext "getattr" [f; SVStr "__no_type_check__"; SVBool false] s1 = (SRVal (SVBool false), s2) ->
   ext "wrapped_fn_holder[0]" [] s2 = (SRVal hv, s3) ->
   ext "getattr" [hv; SVStr "__no_type_check__"; SVBool false] s3 = (SRVal (SVBool true), s4) -> run_ext ext wrapped_src "wrapped_fn" [a; k; c; f; p; h; i] s = Some (ext "fn" [a; k] s4)).
Proof. exact wrapped_fn_off_is_the_plain_call. Qed.
Print Assumptions C07_wrapper_off_is_the_plain_call.
