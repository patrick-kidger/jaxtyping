(* C15 -- nested, union, TypeVar and scalar annotations obey the documented laws.
   Model: model/Annot.v (make_array = _make_array_cached 527-596, getitem = __getitem__ 633-666). *)
From JT Require Import model.Annot gen.DtypeTables proofs.AnnotFacts proofs.DtypeFacts proofs.AnnotAcceptFacts.
Open Scope string_scope.

(* `s2 s1` parses to the concatenation of the two axis lists (the multi-axis index of s1 shifted by the
   number of axes of s2); two multi-axis specifiers are an error *)
Theorem C15_parse_concat : forall s1 s2 d1 d2,
  parse_dims s1 = Ok d1 -> parse_dims s2 = Ok d2 ->
  match ivar d1, ivar d2 with
  | Some _, Some _ => exists c, parse_dims (s2 ++ " " ++ s1) = Err c
  | Some i, None => parse_dims (s2 ++ " " ++ s1) = Ok (mkdims (ds d2 ++ ds d1) (Some (i + length (ds d2))%nat))
  | None, iv => parse_dims (s2 ++ " " ++ s1) = Ok (mkdims (ds d2 ++ ds d1) iv)
  end.
Proof. exact parse_concat. Qed.
Print Assumptions C15_parse_concat.

(* the dtypes of a nested annotation are the intersection; error iff it is empty *)
Theorem C15_dtype_intersection : forall outer inner,
  match inter outer inner with
  | Some r => forall name, dtype_ok (mkannot false r (mkdims [] None) false) name =
                           dtype_ok (mkannot false outer (mkdims [] None) false) name && dtype_ok (mkannot false inner (mkdims [] None) false) name
  | None => exists o i, outer = Some o /\ inner = Some i /\ forall name, smem name o && smem name i = false
  end.
Proof.
  intros outer inner.
  unfold inter, dtype_ok. cbn [a_dtypes]. destruct outer as [o|], inner as [i|]; try (intros name; cbn; try rewrite andb_true_r; reflexivity).
  destruct (filter (fun x => smem x i) o) as [|y l] eqn:Ef.
  - exists o, i. repeat split. intros name. rewrite <- smem_filter, Ef. reflexivity.
  - intros name. fold (smem name (y :: l)). rewrite <- Ef. apply smem_filter.
Qed.
Print Assumptions C15_dtype_intersection.

(* D2[D1[A, s1], s2] is built exactly like (D1 n D2)[A, "s2 s1"], or both are errors *)
Theorem C15_nest_law : forall D1 D2 A s1 s2 b1,
  (A = TAny \/ exists id, A = TClass id) ->
  make_array D1 A s1 = MBuilt b1 ->
  match make_array D2 (TNested b1) s2 with
  | MBuilt b =>
      exists dt, inter D2 D1 = Some dt /\ b_dtypes b = dt /\
      exists bflat, make_array dt A (s2 ++ " " ++ s1) = MBuilt bflat /\
                    b_dims bflat = b_dims b /\ b_any bflat = b_any b /\ b_cls bflat = b_cls b /\ b_dimstr bflat = b_dimstr b
  | MErr _ => (exists c, parse_dims s2 = Err c) \/ inter D2 D1 = None \/ (exists c, parse_dims (s2 ++ " " ++ s1) = Err c)
  | _ => False
  end.
Proof.
  intros D1 D2 A s1 s2 b1. intros (a & c & ->)%flat_cases. rewrite make_array_flat.
  destruct (parse_dims s1) as [d1|e] eqn:E1; [|discriminate]. intros [= <-].
  rewrite make_array_nested by exact E1. cbn [b_dtypes b_dimstr b_any b_cls].
  destruct (parse_dims s2) as [d2|e]; [|left; eauto].
  destruct (inter D2 D1) as [dt|]; [|auto].
  destruct (parse_dims (s2 ++ " " ++ s1)) as [d|e] eqn:Ec; [|eauto].
  exists dt. do 2 (split; [reflexivity|]). rewrite make_array_flat, Ec.
  eexists. split; [reflexivity|]. cbn. auto.
Qed.
Print Assumptions C15_nest_law.

(* Dtype[Union[A1..An], s] is the list of the Dtype[Ai, s] that can be made, in order; an error of any member is an error *)
Theorem C15_union_law : forall dtypes arrs s l,
  getitem dtypes arrs s = inl l ->
  l = filter (fun m => match m with MNotMade => false | _ => true end) (map (fun a => make_array dtypes a s) arrs) /\
  Forall (fun a => forall c, make_array dtypes a s <> MErr c) arrs /\ l <> [].
Proof.
  intros dtypes arrs s l. unfold getitem. destruct (getitem_all dtypes arrs s) as [[[|m l0]|]|c] eqn:E; try discriminate.
  intros [= <-]. destruct (getitem_all_some _ _ _ _ E) as [Hl Hf]. split; [assumption|]. split; [assumption | discriminate].
Qed.
Print Assumptions C15_union_law.

(* Python scalar types survive iff every axis is a multi-axis specifier (so rank 0 is admitted) and the category
   has a dtype of that kind *)
Theorem C15_scalar_survives_iff : forall k dtypes s d,
  parse_dims s = Ok d ->
  (make_array dtypes (TScalar k) s = MScalar k <->
   (forall x, In x (ds d) -> is_variadic x = true) /\
   match dtypes with None => True | Some l => exists n, In n l /\ sprefix (scalar_prefix k) n = true end).
Proof.
  intros k dtypes s d E. unfold make_array. rewrite E.
  transitivity (check_scalar (scalar_prefix k) dtypes d = true).
  { destruct (check_scalar _ dtypes d); split; congruence. }
  unfold check_scalar, all_variadic. rewrite andb_true_iff, forallb_forall.
  destruct dtypes as [l|]; [rewrite existsb_exists|]; tauto.
Qed.
Print Assumptions C15_scalar_survives_iff.

(* the ladder over the 34 generated categories x {bool, int, float, complex} (a bounded sweep by computation):
   which categories contain a Python scalar of each kind *)
Definition ladder (t : list (string * option (list string))) : list (string * list bool) :=
  map (fun kv => (fst kv, map (fun k => check_scalar (scalar_prefix k) (snd kv) (mkdims [] None)) [KBool; KInt; KFloat; KComplex])) t.
Definition has (c : string) (l : list string) : bool := existsb (String.eqb c) l.
Theorem C15_scalar_ladder_table :
  forall c row, In (c, row) (ladder category_table) ->
  row = [has c ["Bool"; "Shaped"];
         has c ["Int"; "Integer"; "Real"; "Num"; "Shaped"; "Int2"; "Int4"; "Int8"; "Int16"; "Int32"; "Int64"];
         has c ["Float"; "Inexact"; "Real"; "Num"; "Shaped"; "Float16"; "Float32"; "Float64"; "Float8e4m3b11fnuz"; "Float8e4m3fn"; "Float8e4m3fnuz"; "Float8e5m2"; "Float8e5m2fnuz"];
         has c ["Complex"; "Inexact"; "Num"; "Shaped"; "Complex64"; "Complex128"]].
Proof. apply (forallb_entry (list_eq_dec Bool.bool_dec)). vm_compute. reflexivity. Qed.
Print Assumptions C15_scalar_ladder_table.

(* the nest law at the level of what is ACCEPTED: for every value, symbol table and context, a check against D2[D1[A, s1], s2]
   gives the same verdict and leaves the same bindings as a check against (D1 n D2)[A, "s2 s1"] *)
Theorem C15_nest_accepts_exactly_the_flat : forall D1 D2 A s1 s2 b1 b,
  (A = TAny \/ exists id, A = TClass id) ->
  make_array D1 A s1 = MBuilt b1 -> make_array D2 (TNested b1) s2 = MBuilt b ->
  exists dt bflat, inter D2 D1 = Some dt /\ make_array dt A (s2 ++ " " ++ s1) = MBuilt bflat /\
    (forall st cls v s, check_built st b cls v s = check_built st bflat cls v s) /\
    (forall st x s, accepts_one st (MBuilt b) x s = accepts_one st (MBuilt bflat) x s).
Proof.
  intros D1 D2 A s1 s2 b1 b HA H1 H2. pose proof (C15_nest_law D1 D2 A s1 s2 b1 HA H1) as N. rewrite H2 in N.
  destruct N as [dt [Hi [Hdt [bflat [Hm [Hd [Ha [Hc _]]]]]]]]. exists dt, bflat. split; [exact Hi|]. split; [exact Hm|].
  apply same_meaning; [now rewrite Hd | now rewrite Hdt, (proj2 (make_array_flat_built dt A _ bflat HA Hm)) | now rewrite Ha | intros _; now rewrite Hc].
Qed.
Print Assumptions C15_nest_accepts_exactly_the_flat.
