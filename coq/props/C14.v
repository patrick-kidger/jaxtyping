(* C14 -- the dim-string language: modifier order is free, whitespace insignificant,
   `name=` ignored, `...` = `*_`, illegal forms rejected (the lemmas are in proofs/DimLangFacts.v).
   The parser model has no fuel: `strip` is structurally recursive, so totality ("every specification is
   accepted or rejected, nothing else") is the kernel's termination check of model/DimLang.v. *)
From JT Require Import model.DimLang proofs.DimLangFacts.
From Coq Require Import Permutation.
Open Scope string_scope.

(* leading / trailing whitespace, for every string and every kind of ASCII whitespace *)
Theorem C14_whitespace_insignificant : forall w1 a w2 : string,
  all_chars is_ws w1 = true -> all_chars is_ws w2 = true ->
  parse_dims (w1 ++ a ++ w2) = parse_dims a.
Proof. intros w1 a w2 H1 H2. unfold parse_dims. now rewrite split_ws_leading, split_ws_trailing. Qed.
Print Assumptions C14_whitespace_insignificant.

(* any non-empty run of whitespace separates axes like any other *)
Theorem C14_separator_insignificant : forall a w w' b : string,
  all_chars is_ws w = true -> w <> "" -> all_chars is_ws w' = true -> w' <> "" ->
  parse_dims (a ++ w ++ b) = parse_dims (a ++ w' ++ b).
Proof. intros a w w' b. intros. unfold parse_dims. now rewrite !split_ws_sep. Qed.
Print Assumptions C14_separator_insignificant.

(* modifiers in any order: for every run of modifier characters of any length and every
   base, two orders of the same modifiers parse alike (same axis, or both rejected);
   side condition: neither spelling ends in '#', which is itself a documented illegal form *)
Theorem C14_modifier_order : forall (m1 m2 : list modc) (base : string),
  Permutation m1 m2 ->
  ends_with_char "#" (mods m1 ++ base) = false ->
  ends_with_char "#" (mods m2 ++ base) = false ->
  res_equiv (parse_token (mods m1 ++ base)) (parse_token (mods m2 ++ base)).
Proof.
  intros m1 m2 base HP H1 H2. destruct m1 as [|x m1], m2 as [|y m2]; try (apply Permutation_length in HP; discriminate HP); [apply res_equiv_refl|].
  rewrite !parse_token_mods, H1, H2.
  destruct (mem_char "," base && negb (mem_char "(" base)); [exact I|]. destruct (has_dots base); [exact I|].
  pose proof (strip_mods (x :: m1) base no_flags) as S1. pose proof (strip_mods (y :: m2) base no_flags) as S2.
  rewrite (apply_mods_perm _ _ HP) in S1. destruct (apply_mods (y :: m2) no_flags) as [f|].
  - rewrite S1, S2. apply res_equiv_refl.
  - destruct S1 as [x1 ->], S2 as [x2 ->]. exact I.
Qed.
Print Assumptions C14_modifier_order.

Example C14_modifier_order_nonvacuous :
  parse_token "*#?foo" = parse_token "?#*foo" /\
  parse_token "*#?foo" = Ok (mkflags true true false true, "foo", TNamed).
Proof. split; reflexivity. Qed.

Theorem C14_repeated_modifier_rejected : forall (m : list modc) (base : string),
  ~ NoDup m -> exists c, parse_token (mods m ++ base) = Err c.
Proof.
  intros m base Hnd. destruct m as [|x m]; [destruct Hnd; constructor|]. rewrite parse_token_mods.
  destruct (_ && _); [eauto|]. destruct (ends_with_char _ _); [eauto|]. destruct (has_dots base); [eauto|].
  pose proof (strip_mods (x :: m) base no_flags) as S. destruct (apply_mods (x :: m) no_flags) eqn:E.
  - destruct (Hnd (apply_mods_nodup _ _ _ E)).
  - destruct S as [y ->]. eauto.
Qed.
Print Assumptions C14_repeated_modifier_rejected.

(* a `name=` prefix is skipped and the loop goes on with what follows it *)
Theorem C14_doc_prefix_ignored : forall (name rest : string) (f : flags),
  plain_start name = true -> count_char "=" name = 0 -> count_char "=" rest = 0 ->
  strip (name ++ String "=" rest) f = strip rest f.
Proof.
  intros name rest f Hp Hn Hr. rewrite strip_plain by (destruct name; [discriminate | exact Hp]).
  rewrite count_char_app, Hn, after_eq_app by exact Hn. cbn [count_char]. now rewrite Hr.
Qed.
Print Assumptions C14_doc_prefix_ignored.

(* `...` means `*_` *)
Theorem C14_ellipsis_is_star_underscore : forall sv : bool,
  match parse_token "...", parse_token "*_" with
  | Ok a, Ok b => build_dim sv a = build_dim sv b /\ build_dim false a = Ok DVarAnon
  | _, _ => False
  end.
Proof. intros []; split; reflexivity. Qed.
Print Assumptions C14_ellipsis_is_star_underscore.

(* after one multi-axis specifier (index_variadic is set) any further token with `*` or `...` is an error: at most one per dim string *)
Theorem C14_second_variadic_rejected : forall (t : list string) (index i : nat),
  existsb tok_variadic t = true -> exists c, parse_tokens t index (Some i) = Err c.
Proof.
  intros t index i H. destruct (parse_tokens t index (Some i)) as [[dl ivf]|c] eqn:E; [|eauto].
  apply parse_tokens_some in E as (_ & E & _). congruence.
Qed.
Print Assumptions C14_second_variadic_rejected.

Theorem C14_fixed_axis_modifiers_rejected : forall sv f rest z,
  f_var f || f_anon f || f_tp f = true -> exists c, build_dim sv (f, rest, TFixed z) = Err c.
Proof. intros sv f rest z. apply unnamed_modifiers_rejected. discriminate. Qed.
Print Assumptions C14_fixed_axis_modifiers_rejected.

Theorem C14_symbolic_axis_modifiers_rejected : forall sv f rest,
  f_var f || f_anon f || f_tp f = true -> exists c, build_dim sv (f, rest, TSym) = Err c.
Proof. intros sv f rest. apply unnamed_modifiers_rejected. discriminate. Qed.
Print Assumptions C14_symbolic_axis_modifiers_rejected.

Theorem C14_anonymous_broadcastable_rejected : forall sv f rest,
  f_anon f = true -> f_bc f = true -> exists c, build_dim sv (f, rest, TNamed) = Err c.
Proof.
  intros sv f rest Ha Hb. destruct (build_dim sv (f, rest, TNamed)) as [d|c] eqn:E; [|eauto].
  apply build_dim_ok_iff in E as (_ & [(_ & Hb' & _) | (Ha' & _)]); congruence.
Qed.
Print Assumptions C14_anonymous_broadcastable_rejected.

(* ... and only those: the exact set of accepted (flags, base kind) combinations *)
Theorem C14_accepted_exactly : forall sv f rest ty d,
  build_dim sv (f, rest, ty) = Ok d <->
  (f_var f && sv = false) /\
  match ty with
  | TFixed z => f_var f = false /\ f_anon f = false /\ f_tp f = false /\ d = DFixed z (f_bc f)
  | TSym => f_var f = false /\ f_anon f = false /\ f_tp f = false /\ d = DSym rest (f_bc f)
  | TNamed =>
      (f_anon f = true /\ f_bc f = false /\ d = (if f_var f then DVarAnon else DAnon)) \/
      (f_anon f = false /\ d = (if f_var f then DVarNamed rest (f_bc f) (f_tp f) else DNamed rest (f_bc f) (f_tp f)))
  end.
Proof. exact build_dim_ok_iff. Qed.
Print Assumptions C14_accepted_exactly.

(* whole-token illegal forms, by computation on the documented examples *)
Example C14_illegal_examples :
  map (fun s => show_parse_code (parse_dims s))
      ["a,b"; "a#"; "#..."; "##a"; "**a"; "__a"; "??a"; "*a *b"; "*4"; "_4"; "?4"; "#_"; "_a+b"; "*a+b"; "?a+b"; "min(a,b)"]
  = ["E1"; "E2"; "E3"; "E4"; "E5"; "E6"; "E7"; "E8"; "E9"; "E10"; "E11"; "E12"; "E13"; "E14"; "E15"; "ok"].
Proof. reflexivity. Qed.
