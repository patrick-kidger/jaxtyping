(* C09 -- PyTree structure names bind, compose, prefix and suffix exactly as documented.
   tdef = treedefs (rose trees with node kinds); `composed [S1;...;Sn]` = S1 with every leaf
   replaced by (S2 with every leaf replaced by ...); `structure_step` is lines 126-180 of
   jaxtyping/_pytree_type.py on the treedef of the candidate. *)
From JT Require Import model.PyTreeCheck proofs.TreeFacts proofs.StructFacts.
From Coq Require Import Lia.
Open Scope string_scope.

Theorem C09_bind_on_first_use : forall n x tm,
  aget tm n = None -> structure_step (SName n) x tm = StOk (aset tm n x).
Proof. intros n x tm. cbn. now intros ->. Qed.
Print Assumptions C09_bind_on_first_use.

Theorem C09_later_use_accepts_iff_identical : forall n x tm prev,
  aget tm n = Some prev -> (structure_step (SName n) x tm = StOk tm <-> x = prev).
Proof. intros n x tm prev H. rewrite (equal_on_later_use _ _ _ _ H), (proj1 (reflected_step _ _ tm (tdef_eqb_eq prev x))). split; congruence. Qed.
Print Assumptions C09_later_use_accepts_iff_identical.

Theorem C09_treedef_equality_is_identity : forall a b : tdef, tdef_eqb a b = true <-> a = b.
Proof. exact tdef_eqb_eq. Qed.
Print Assumptions C09_treedef_equality_is_identity.

(* the fold of the implementation composes left to right, and composition is associative *)
Theorem C09_compose_impl : forall pieces, compose_impl pieces = fold_right compose star pieces.
Proof. exact compose_impl_spec. Qed.
Print Assumptions C09_compose_impl.

Theorem C09_compose_assoc : forall a b c, compose (compose a b) c = compose a (compose b c).
Proof. exact compose_assoc. Qed.
Print Assumptions C09_compose_assoc.

Theorem C09_composite_exact : forall names ds x tm,
  lookup_all tm names = Some ds ->
  (structure_step (SComp false false names) x tm = StOk tm <-> x = composed ds) /\
  (structure_step (SComp false false names) x tm = StOk tm \/ structure_step (SComp false false names) x tm = StNo).
Proof. exact (composite_step_exact false false). Qed.
Print Assumptions C09_composite_exact.

(* `T ...`: exactly the trees obtained from T by replacing every leaf by some tree *)
Theorem C09_prefix_exact : forall names ds x tm,
  lookup_all tm names = Some ds ->
  (structure_step (SComp true false names) x tm = StOk tm <-> Prefix (composed ds) x) /\
  (structure_step (SComp true false names) x tm = StOk tm \/ structure_step (SComp true false names) x tm = StNo).
Proof. exact (composite_step_exact true false). Qed.
Print Assumptions C09_prefix_exact.

(* `... T`: exactly the trees U o T -- the greedy top-down cut of the code is sound and complete,
   including leaf-less T and candidates containing None / empty containers *)
Theorem C09_suffix_exact : forall names ds x tm,
  lookup_all tm names = Some ds ->
  (structure_step (SComp false true names) x tm = StOk tm <-> exists u, x = compose u (composed ds)) /\
  (structure_step (SComp false true names) x tm = StOk tm \/ structure_step (SComp false true names) x tm = StNo).
Proof. exact (composite_step_exact false true). Qed.
Print Assumptions C09_suffix_exact.

Theorem C09_greedy_cut_exact : forall t x, suffix_check t x = true <-> exists u, x = compose u t.
Proof. exact suffix_exact. Qed.
Print Assumptions C09_greedy_cut_exact.

Theorem C09_unbound_name_raises : forall pre suf names x tm,
  lookup_all tm names = None -> structure_step (SComp pre suf names) x tm = StRaise.
Proof. intros pre suf names x tm H. cbn [structure_step]. now rewrite H. Qed.
Print Assumptions C09_unbound_name_raises.

Theorem C09_unbound_iff_some_name_unseen : forall tm names,
  lookup_all tm names = None <-> exists n, In n names /\ aget tm n = None.
Proof.
  intros tm names. rewrite <- Exists_exists. induction names as [|n r IH]; cbn.
  - split; [discriminate | intros H; inversion H].
  - fold (lookup_all tm r). rewrite Exists_cons, <- IH. destruct (aget tm n), (lookup_all tm r); intuition congruence.
Qed.
Print Assumptions C09_unbound_iff_some_name_unseen.

(* structure strings: accepted at build time iff identifiers optionally preceded or followed (not both) by `...` *)
Theorem C09_validate_spec : forall s, validate_structure s = true <-> struct_ok (split_ws s).
Proof.
  intros s. rewrite validate_unfold. destruct (split_ws s) as [|p0 l].
  - split; [discriminate|]. intros (ids & Hne & _ & [<- | [H | H]]); [congruence | discriminate | now destruct ids].
  - pose proof (dots_not_identifier p0) as D0. destruct l as [|pl mid _] using rev_ind.
    + rewrite struct_ok_one. cbn [last length vloop Nat.eqb orb andb]. rewrite andb_true_r.
      destruct (is_dots p0); [rewrite D0 by reflexivity|]; cbn; tauto.
    + pose proof (dots_not_identifier pl) as Dl.
      rewrite (last_last (p0 :: mid) pl "" : last (p0 :: mid ++ [pl]) "" = pl), struct_ok_ends, <- !is_dots_eq, <- forallb_all_ident.
      cbn [vloop length Nat.eqb orb andb].
      rewrite (vloop_tail _ pl mid 1) by (rewrite ?app_length; cbn; lia).
      destruct (is_dots p0); [rewrite D0 by reflexivity|]; (destruct (is_dots pl); [rewrite Dl by reflexivity|]);
        cbn; rewrite ?andb_true_iff; intuition congruence.
Qed.
Print Assumptions C09_validate_spec.
