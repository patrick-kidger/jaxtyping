(* C17 -- verdicts depend on type, shape and dtype only, so tracing equals eager.
   Model: model/Trace.v (the check with an access log over objects that also carry element data and a tracer flag).
   What jit / vmap / grad / eval_shape hand to the function is JAX's: validated by the correspondence, not proved. *)
From JT Require Import model.Trace proofs.TraceCallFacts.
Open Scope string_scope.

Theorem C17_log_refines_the_check : forall flat lbl st a o s,
  fst (instancecheck_log flat lbl st a o s) = instancecheck flat lbl st a (observe o) s.
Proof.
  intros flat lbl st a o s. unfold instancecheck_log, instancecheck, observe. cbn [v_inst v_attrs v_dtype v_shape].
  destruct (a_skip a); [reflexivity|].
  destruct (negb (if a_any a then o_attrs o else o_inst o)); [reflexivity|].
  destruct flat; [reflexivity|].
  destruct (negb (dtype_ok a (o_dtype o))); [reflexivity|].
  destruct (check_shape lbl st (a_dims a) (o_shape o) (get_memo s)) as [r m']. destruct r; reflexivity.
Qed.
Print Assumptions C17_log_refines_the_check.

Theorem C17_never_forces_a_value : forall flat lbl st a o s, ~ In AForce (snd (instancecheck_log flat lbl st a o s)).
Proof.
  intros flat lbl st a o s. unfold instancecheck_log.
  destruct (a_skip a); [intros []|].
  destruct (negb (if a_any a then o_attrs o else o_inst o)); [destruct (a_any a); cbn; intuition discriminate|].
  destruct flat; [destruct (a_any a); cbn; intuition discriminate|].
  destruct (negb (dtype_ok a (o_dtype o))); [destruct (a_any a); cbn; intuition discriminate|].
  destruct (check_shape lbl st (a_dims a) (o_shape o) (get_memo s)) as [r m']. destruct (a_any a); cbn; intuition discriminate.
Qed.
Print Assumptions C17_never_forces_a_value.

(* two values with the same type membership, shape and dtype -- e.g. a tracer and a concrete array with the same
   aval, or two arrays with different elements -- get the same verdict, the same bindings and the same accesses *)
Theorem C17_value_independent : forall flat lbl st a o1 o2 s,
  observe o1 = observe o2 -> instancecheck_log flat lbl st a o1 s = instancecheck_log flat lbl st a o2 s.
Proof.
  intros flat lbl st a o1 o2 s. unfold observe. intros H. inversion H as [[Hi Ha Hd Hs]]. unfold instancecheck_log. now rewrite Hi, Ha, Hd, Hs.
Qed.
Print Assumptions C17_value_independent.

Theorem C17_tracer_equals_eager : forall flat lbl st a i at_ d sh data1 data2 s,
  instancecheck_log flat lbl st a (mkobj i at_ d sh data1 true) s = instancecheck_log flat lbl st a (mkobj i at_ d sh data2 false) s.
Proof. intros flat lbl st a i at_ d sh data1 data2 s. apply C17_value_independent. reflexivity. Qed.
Print Assumptions C17_tracer_equals_eager.

(* the same for a WHOLE decorated call: every annotated argument and the return value checked in turn inside one context
   (bindings made by an earlier argument constrain the later ones) *)
Theorem C17_call_log_refines_the_walk : forall lbl st us s, fst (walk_log lbl st us s) = walk lbl st (map observe_use us) s.
Proof.
  intros lbl st. induction us as [|[a o] r IH]; intros s; cbn [walk_log walk map observe_use fst snd]; [reflexivity|].
  rewrite <- (C17_log_refines_the_check false lbl st a o s).
  destruct (instancecheck_log false lbl st a o s) as [[v s'] l]. cbn [fst].
  destruct v; try reflexivity. specialize (IH s'). destruct (walk_log lbl st r s') as [x l']. exact IH.
Qed.
Print Assumptions C17_call_log_refines_the_walk.

Theorem C17_call_never_forces_a_value : forall lbl st us s, ~ In AForce (snd (walk_log lbl st us s)).
Proof.
  intros lbl st. induction us as [|[a o] r IH]; intros s; cbn [walk_log]; [intros []|].
  pose proof (C17_never_forces_a_value false lbl st a o s) as Hn.
  destruct (instancecheck_log false lbl st a o s) as [[v s'] l]. cbn [snd] in Hn.
  destruct v; try exact Hn. specialize (IH s'). destruct (walk_log lbl st r s') as [x l']. cbn [snd] in *.
  intros Hin. apply in_app_or in Hin as [H|H]; [now apply Hn | now apply IH].
Qed.
Print Assumptions C17_call_never_forces_a_value.

(* same annotations, objects that agree on type membership, shape and dtype, argument by argument: same verdict, same bindings
   left behind, same accesses -- whatever the element values and whichever of them are tracers *)
Theorem C17_call_value_independent : forall lbl st us1 us2 s,
  map observe_use us1 = map observe_use us2 -> walk_log lbl st us1 s = walk_log lbl st us2 s.
Proof.
  intros lbl st. induction us1 as [|[a1 o1] r1 IH]; intros [|[a2 o2] r2] s H; cbn [map] in H; try discriminate; [reflexivity|].
  unfold observe_use in H at 1 3. cbn [fst snd] in H.
  assert (Ha : a1 = a2) by congruence. assert (Ho : observe o1 = observe o2) by congruence.
  assert (Hr : map observe_use r1 = map observe_use r2) by congruence.
  cbn [walk_log]. subst a2.
  rewrite (C17_value_independent false lbl st a1 o1 o2 s Ho).
  destruct (instancecheck_log false lbl st a1 o2 s) as [[v s'] l]. destruct v; try reflexivity. now rewrite (IH r2 s' Hr).
Qed.
Print Assumptions C17_call_value_independent.

(* every argument replaced by a tracer of the same aval (what jit, vmap, grad and eval_shape hand over): same verdict, same
   bindings left in the context, same accesses as the eager call *)
Theorem C17_traced_call_equals_eager_call : forall lbl st us s, walk_log lbl st (map as_tracer us) s = walk_log lbl st us s.
Proof. intros lbl st us s. apply C17_call_value_independent. rewrite map_map. apply map_ext. intros [a o]. reflexivity. Qed.
Print Assumptions C17_traced_call_equals_eager_call.
