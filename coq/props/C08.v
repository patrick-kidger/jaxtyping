(* C08 -- PyTree[L] accepts exactly the trees all of whose leaves match L.
   Model: model/PyTreeCheck.v (leafmatch / pytree_body / flatten_with / leaf_loop). *)
From JT Require Import model.PyTreeCheck proofs.PyTreeFacts.
Open Scope string_scope.

(* a check only ever touches the current (top) context *)
Theorem C08_check_touches_top_context_only : forall st l x s vd s',
  leafmatch st l x s = (vd, s') -> same_below s s'.
Proof. exact leafmatch_frame. Qed.
Print Assumptions C08_check_touches_top_context_only.

(* a rejected (or raising) tree binds nothing: neither axes nor structure names -- although leaves
   before the offending one had already bound theirs (C04, PyTree half) *)
Theorem C08_reject_restores : forall st l sopt x s vd s',
  leafmatch st (LPyTree l sopt) x s = (vd, s') -> vd <> Acc -> ps_stack s' = ps_stack s.
Proof. exact pytree_reject_restores. Qed.
Print Assumptions C08_reject_restores.

(* bare PyTree accepts everything; a top-level None is accepted by every PyTree[L, S] *)
Theorem C08_bare_accepts_everything : forall st x s, leafmatch st LPyTreeBare x s = (Acc, s).
Proof. reflexivity. Qed.
Print Assumptions C08_bare_accepts_everything.

Theorem C08_toplevel_none_accepted : forall st l sopt s, pytree_check st l sopt (Node KNone []) s = (Acc, s).
Proof. reflexivity. Qed.
Print Assumptions C08_toplevel_none_accepted.

(* non-vacuity: partial progress exists and is rolled back *)
Example C08_partial_progress_rolled_back :
  let x := Node KTuple [Leaf (PArr (mkvalue true true "float32" [2]%Z)); Leaf (PArr (mkvalue true true "float32" [3]%Z))] in
  let s := mkps [(empty_memo, [])] None false in
  leafmatch [] (LPyTree (LArr (AC None "a")) (Some "T")) x s = (Rej, s) /\
  fst (leafmatch [] (LPyTree (LArr (AC None "b")) (Some "T")) (Node KTuple [Leaf (PArr (mkvalue true true "float32" [2]%Z))]) s) = Acc.
Proof. vm_compute. split; reflexivity. Qed.

(* leaf types without array annotations: int, str, tuples and unions of them *)
From JT Require Import proofs.BaseFacts proofs.PurePyTreeFacts.

(* typeguard's check of such a leaf type is a pure function of the value *)
Theorem C08_pure_leaf_check : forall st l, pure l = true -> forall x s, leafmatch st l x s = (vb (pmatch l x), s).
Proof.
  intros st. induction l as [| | |ls IH|ls IH|a| |l sopt IH] using leafty_ind'; intros Hp x s; try discriminate.
  - cbn. destruct x as [[]|]; reflexivity.
  - cbn. destruct x as [[]|]; reflexivity.
  - rewrite leafmatch_tuple, pmatch_tuple.
    destruct x as [|[] cs]; try reflexivity; apply tuple_match_pure, (Forall_guard _ _ _ IH Hp).
  - rewrite leafmatch_union, pmatch_union.
    apply union_match_pure, (Forall_guard _ _ _ IH Hp).
Qed.
Print Assumptions C08_pure_leaf_check.

(* PyTree[L] accepts x iff every leaf of x matches L, where a leaf is a topmost subtree that matches L or else a
   non-container object; None and empty containers contribute no leaves; a top-level None is accepted *)
Theorem C08_accepts_iff_all_leaves_match : forall st l, pure l = true -> forall x s,
  fst (leafmatch st (LPyTree l None) x s) = vb (is_none x || forallb (pmatch l) (leaves_of (pmatch l) x)).
Proof.
  intros st l Hp x s. rewrite leafmatch_pytree_none. destruct (is_none x); [reflexivity|].
  destruct (pure_not_any st l Hp) as [Ef Ec].
  apply pytree_body_pure; intros y s0; rewrite ?Ef, ?Ec, (C08_pure_leaf_check st l Hp); reflexivity.
Qed.
Print Assumptions C08_accepts_iff_all_leaves_match.

(* PyTree[PyTree[L]] and PyTree[L] accept the same values *)
Theorem C08_nested_same : forall st l, pure l = true -> forall x s1 s2,
  fst (leafmatch st (LPyTree (LPyTree l None) None) x s1) = fst (leafmatch st (LPyTree l None) x s2).
Proof.
  intros st l Hp x s1 s2. assert (Hin : forall y s, fst (leafmatch st (LPyTree l None) y s) = vb (all_leaves (pmatch l) y)).
  { intros y s. rewrite (C08_accepts_iff_all_leaves_match st l Hp). apply f_equal, all_leaves_none. }
  rewrite Hin, leafmatch_pytree_none, <- (all_leaves_none _ x). destruct (is_none x); [reflexivity|].
  rewrite (pytree_body_pure st (LPyTree l None) _ _ x s1 Hin Hin). apply f_equal, all_leaves_nested.
Qed.
Print Assumptions C08_nested_same.

Theorem C08_any_accepts_everything : forall st x s, fst (leafmatch st (LPyTree LAny None) x s) = Acc.
Proof.
  intros st x s. rewrite leafmatch_pytree_none. destruct (is_none x); [reflexivity|].
  rewrite (pytree_body_pure st LAny (fun _ => false) (fun _ => true)) by reflexivity.
  replace (forallb _ _) with true; [reflexivity|]. symmetry. now apply forallb_forall.
Qed.
Print Assumptions C08_any_accepts_everything.

Example C08_leaves_examples :
  let i := Leaf (PInt 1) in
  leaves_of (pmatch LInt) (Node KTuple [Node KNone []; i; Node KTuple []; Node (KDict []) []]) = [i] /\
  leaves_of (pmatch (LTuple [LInt; LInt])) (Node KList [Node KTuple [i; i]; Node (KNamed "P") [i; i]; Node KTuple [i]]) = [Node KTuple [i; i]; Node (KNamed "P") [i; i]; i].
Proof. split; reflexivity. Qed.

(* the PyTree check with the rollback structure read from the source (gen/Brackets.v) is the model's, so "a rejected tree binds nothing"
   (C08_reject_restores) is a theorem about it: props/C04.v states that, C04_pytree_check_as_in_source_restores *)
From JT Require Import gen.Brackets model.SourceShape proofs.SourceShapeFacts.
Theorem C08_check_as_in_source_is_the_model : forall st l sopt x s,
  pytree_check_src st pytree_check_rolls_back l sopt x s = leafmatch st (LPyTree l sopt) x s.
Proof. exact pytree_check_src_true. Qed.
Print Assumptions C08_check_as_in_source_is_the_model.

(* "array-annotated leaves share axis bindings with one another and with the rest of the context": inside a context,
   PyTree[Dtype[Array, dims]] decides like ONE walk over its array leaves -- it accepts exactly when the assignments
   consistent with the context can be narrowed to ones satisfying EVERY leaf (and narrows to exactly those); a rejected
   tree means no assignment consistent with the context satisfies all leaves, and leaves the store as it was *)
From JT Require Import proofs.CheckFacts proofs.IdemFacts.
Theorem C08_array_leaves_share_one_assignment : forall st a, wf_annot a -> forall x m t r vd s',
  leafmatch st (LPyTree (LArr a) None) x (mkps ((m, t) :: r) None false) = (vd, s') ->
  (vd = Acc -> exists m', s' = mkps ((m', t) :: r) None false /\ margs m' = margs m /\
                          forall e, gamma m' e <-> gamma m e /\ Forall (full_sat None st (margs m) e) (uses a (array_leaves st a x))) /\
  (vd = Rej -> s' = mkps ((m, t) :: r) None false /\
               forall e, gamma m e -> ~ Forall (full_sat None st (margs m) e) (uses a (array_leaves st a x))).
Proof.
  intros st a Hwf x m t r vd s'. fold (S t r m). rewrite (pytree_arrays_as_walk st a Hwf).
  destruct (walk None st (uses a (array_leaves st a x)) [m]) as [[] sw] eqn:Ew; intros [= <- <-]; (split; intros Hv; try discriminate Hv).
  - destruct (walk_acc None st _ m [] sw (uses_wf a Hwf _) Ew) as (m' & -> & Ha & Hg). exists m'. auto.
  - split; [reflexivity | exact (walk_rej None st _ m [] sw (uses_wf a Hwf _) Ew)].
Qed.
Print Assumptions C08_array_leaves_share_one_assignment.

(* the leaves meant above are the ones the flatten phase yields whatever the bindings are *)
Theorem C08_flatten_phase_independent_of_bindings : forall st a, wf_annot a -> forall x st1 p1 st2 p2, exists fl,
  flatten_with (leafmatch st (LArr a)) x (mkps st1 p1 true) = (fl, mkps st1 p1 true, None) /\
  flatten_with (leafmatch st (LArr a)) x (mkps st2 p2 true) = (fl, mkps st2 p2 true, None).
Proof. exact flatten_flat. Qed.
Print Assumptions C08_flatten_phase_independent_of_bindings.

Example C08_array_leaves_nonvacuous :
  let arr sh := Leaf (PArr (mkvalue true true "float32" sh)) in
  array_leaves [] (AC None "a b") (Node KTuple [arr [2; 3]%Z; Node KNone []; Node (KDict ["k"]) [arr [2; 4]%Z]]) = [arr [2; 3]%Z; arr [2; 4]%Z] /\
  fst (leafmatch [] (LPyTree (LArr (AC None "a b")) None) (Node KTuple [arr [2; 3]%Z; Node (KDict ["k"]) [arr [2; 4]%Z]]) (mkps [(empty_memo, [])] None false)) = Rej.
Proof. vm_compute. split; reflexivity. Qed.

(* the snapshot / roll-back wrapper of _MetaPyTree.__instancecheck__, AS REGENERATED FROM THE SOURCE on every run
   (gen/StorageSrc.v, interpreted by model/SL.v): whatever the tree walk cls._check does to the store (`ext` is an arbitrary
   function), a rejected tree and ANY exception leave the frame the check started from on top -- a rejected tree binds nothing *)
From JT Require Import model.SL gen.StorageSrc proofs.SLFacts.
Theorem C08_pytree_rollback_wrapper_as_in_source : forall ext cls obj s,
  wf_top s ->
  exists args,
    let '(r1, s1) := ext "_check" args s in
    exists r' s', run_ext ext rollback_src "pytree_tail" [cls; obj] s = Some (r', s') /\
      match r1 with
      | SRExn x => r' = SRExn x /\ abs_store s' = set_top (abs_store s1) (top_frame (abs_store s))
      | SRVal v => match pytree_ok v with
                   | Some true => r' = SRVal v /\ s' = s1
                   | Some false => r' = SRVal v /\ abs_store s' = set_top (abs_store s1) (top_frame (abs_store s))
                   | None => r' = SRExn XOther
                   end
      end.
Proof. exact (fun ext cls obj s W => rollback_wrappers_as_in_source ext cls obj s false W). Qed.
Print Assumptions C08_pytree_rollback_wrapper_as_in_source.
