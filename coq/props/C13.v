(* C13 -- type-check errors are raised iff violated and describe the failure truthfully.
   Model: model/Wrapper.v (call_new = wrapped_fn_impl + _get_problem_arg).  Together with
   C02 (verdict of a walk = existence of a consistent assignment) and C04 (a failed check
   is rolled back) these say: the error names the stage, blames the first parameter that
   fails given those declared before it, and reports the bindings of exactly the accepted
   checks. *)
From JT Require Import model.Wrapper proofs.CheckFacts.
From Coq Require Import Lia.
Open Scope string_scope.

(* the three outcomes of wrapped_fn_impl.  Success: both walks accepted *)
Theorem C13_success_iff_both_walks_accept : forall lbl st params ret s0 s',
  call_new lbl st params ret s0 = (CROk, s') <->
  exists s1, walk lbl st params s0 = (Acc, s1) /\
             match ret with None => s' = s1 | Some r => walk lbl st (params ++ [r]) s1 = (Acc, s') end.
Proof.
  intros lbl st params ret s0 s'. unfold call_new. split.
  - destruct (walk lbl st params s0) as [[| |e] s1].
    + destruct ret as [r|]; [|intros [= <-]; eauto].
      destruct (walk lbl st (params ++ [r]) s1) as [[| |e2] s2] eqn:Ew2; [intros [= <-]; eauto | discriminate|].
      destruct (converted e2); discriminate.
    + destruct (problem_arg lbl st params 0 s1) as [[k|e] s2]; discriminate.
    + destruct (converted e); [destruct (problem_arg lbl st params 0 s1) as [[k|e'] s2]|]; discriminate.
  - intros [s1 [Hw Hr]]. rewrite Hw. destruct ret as [r|]; [rewrite Hr|subst]; reflexivity.
Qed.
Print Assumptions C13_success_iff_both_walks_accept.

(* a TypeCheckError comes from a walk that rejected, or raised what the wrapper converts -- so never from an AnnotationError --
   and lists the bindings of the context as it is then *)
Theorem C13_error_stage_and_bindings : forall lbl st params ret s0 stg k m s',
  call_new lbl st params ret s0 = (CRTypeCheck stg k m, s') ->
  match stg with
  | SParams => exists vd s1, walk lbl st params s0 = (vd, s1) /\ (vd = Rej \/ exists e, vd = Raise e /\ converted e = true)
  | SReturn => exists s1 r vd, walk lbl st params s0 = (Acc, s1) /\ ret = Some r /\
               walk lbl st (params ++ [r]) s1 = (vd, s') /\ (vd = Rej \/ exists e, vd = Raise e /\ converted e = true)
  end /\ m = get_memo s'.
Proof.
  intros lbl st params ret s0 stg k m s'. unfold call_new. destruct (walk lbl st params s0) as [[| |e] s1].
  - destruct ret as [r|]; [|discriminate].
    destruct (walk lbl st (params ++ [r]) s1) as [[| |e2] s2] eqn:Ew2; [discriminate| |destruct (converted e2) eqn:Ec; [|discriminate]].
    all: intros H; inversion H; subst; split; [|reflexivity].
    + exists s1, r, Rej. auto.
    + exists s1, r, (Raise e2). repeat split; eauto.
  - destruct (problem_arg lbl st params 0 s1) as [[k'|e'] s2]; [|discriminate]. intros H; inversion H; subst.
    split; [|reflexivity]. exists Rej, s1. auto.
  - destruct (converted e) eqn:Ec; [|discriminate].
    destruct (problem_arg lbl st params 0 s1) as [[k'|e'] s2]; [|discriminate]. intros H; inversion H; subst.
    split; [|reflexivity]. exists (Raise e), s1. eauto.
Qed.
Print Assumptions C13_error_stage_and_bindings.

(* every parameter declared before the blamed one passes (in order, sharing bindings), it does not,
   and the bindings afterwards are those of the ones before it *)
Theorem C13_blame_truthful : forall lbl st us idx s k s',
  problem_arg lbl st us idx s = (PBlame (Some k), s') ->
  exists pre a v post,
    us = (pre ++ (a, v) :: post)%list /\ k = (idx + length pre)%nat /\
    walk lbl st pre s = (Acc, s') /\
    fst (instancecheck false lbl st a v s') <> Acc /\
    snd (instancecheck false lbl st a v s') = s'.
Proof.
  intros lbl st. induction us as [|[a v] us IH]; intros idx s k s' H; cbn in H; [discriminate|].
  destruct (instancecheck false lbl st a v s) as [vd s1] eqn:E.
  destruct vd as [| |e]; [| |destruct (is_exception_subclass e); [|discriminate]].
  (* rejected, or raised an Exception: this is the blamed parameter, and its check left nothing behind *)
  2,3: assert (s1 = s) by (eapply instancecheck_not_acc_restores; [exact E | discriminate]); subst s1;
       inversion H; subst; exists [], a, v, us; cbn; rewrite E; repeat split; [lia | discriminate].
  destruct (IH _ _ _ _ H) as (pre & a' & v' & post & -> & -> & Hw & Hn & Hs).
  exists ((a, v) :: pre), a', v', post. cbn. rewrite E. repeat split; auto.
Qed.
Print Assumptions C13_blame_truthful.

(* nobody blamed: the walk of _get_problem_arg accepted every parameter *)
Theorem C13_no_blame_means_each_passes : forall lbl st us idx s s',
  problem_arg lbl st us idx s = (PBlame None, s') -> walk lbl st us s = (Acc, s').
Proof.
  intros lbl st. induction us as [|[a v] us IH]; intros idx s s' H; cbn in *; [inversion H; reflexivity|].
  destruct (instancecheck false lbl st a v s) as [[| |e] s1]; [eauto | discriminate|].
  destruct (is_exception_subclass e); discriminate.
Qed.
Print Assumptions C13_no_blame_means_each_passes.

(* a misuse of the annotation language is reported as such, by whichever walk meets it *)
Theorem C13_annotation_error_passes_through : forall lbl st params ret s0,
  (exists s1, walk lbl st params s0 = (Raise AnnotationErr, s1)) \/
  (exists s1 r s2, walk lbl st params s0 = (Acc, s1) /\ ret = Some r /\ walk lbl st (params ++ [r]) s1 = (Raise AnnotationErr, s2)) ->
  fst (call_new lbl st params ret s0) = CRRaise AnnotationErr.
Proof.
  intros lbl st params ret s0. unfold call_new. intros [[s1 H]|[s1 [r [s2 [H1 [Hr H2]]]]]].
  - rewrite H. reflexivity.
  - rewrite H1. subst ret. rewrite H2. reflexivity.
Qed.
Print Assumptions C13_annotation_error_passes_through.

(* non-vacuity, and the example of the defect repaired by /repo commit 095bda1:
   f(x: "foo", y: "bar foo") with shapes (3,), (4, 5): y is blamed and the bindings are foo=3 only
   (the stale tuple used to show bar=4, taken from the failed check) *)
Example C13_nonvacuous :
  run_call [] [] [mkstep "foo" false None (mkvalue true true "float32" [3]%Z);
               mkstep "bar foo" false None (mkvalue true true "float32" [4; 5]%Z)] None
  = "TypeCheckError params blamed=1 S{foo=3} V{}".
Proof. vm_compute. reflexivity. Qed.

(* raised iff violated: with C02, no TypeCheckError when one consistent assignment exists, and one (or a propagated
   exception) when none does *)
From JT Require Import proofs.TwoPassFacts.
Theorem C13_raised_iff_no_consistent_assignment : forall lbl st params r args vd s',
  Forall (fun u => wf_annot (fst u)) (params ++ [r]) ->
  walk lbl st (params ++ [r]) (push_memo [] args) = (vd, s') -> (forall x, vd <> Raise x) ->
  (fst (call_new lbl st params (Some r) (push_memo [] args)) = CROk <->
   exists e, Forall (full_sat lbl st args e) (params ++ [r])).
Proof. exact call_succeeds_iff_consistent_assignment. Qed.
Print Assumptions C13_raised_iff_no_consistent_assignment.

(* "none [of the listed bindings is] taken from the check that failed": the failing isinstance has restored the context
   before the wrapper formats the message, because of the rollback structure read from the source (gen/Brackets.v) *)
From JT Require Import gen.Brackets model.SourceShape proofs.SourceShapeFacts.
Theorem C13_failed_check_leaves_nothing_behind : forall flat lbl st a v s vd s',
  instancecheck_src array_check_rolls_back flat lbl st a v s = (vd, s') -> vd <> Acc -> s' = s.
Proof. exact (fun flat lbl st a v s vd s' => instancecheck_src_restores array_check_rolls_back flat lbl st a v s vd s' eq_refl). Qed.
Print Assumptions C13_failed_check_leaves_nothing_behind.
Theorem C13_failed_pytree_check_leaves_nothing_behind : forall st l sopt x s vd s',
  pytree_check_src st pytree_check_rolls_back l sopt x s = (vd, s') -> vd <> Acc -> ps_stack s' = ps_stack s.
Proof. exact (fun st l sopt x s vd s' => pytree_check_src_restores pytree_check_rolls_back st l sopt x s vd s' eq_refl). Qed.
Print Assumptions C13_failed_pytree_check_leaves_nothing_behind.

(* PyTree-annotated parameters (model/PWrapper.v: the same wrapper over array and PyTree[L, structure] uses) *)
From JT Require Import model.PWrapper proofs.PWrapperFacts.

(* a use that does not accept -- an array or a whole tree, wherever in the tree the failure is -- leaves the context as it was *)
Theorem C13_failed_use_leaves_nothing_behind : forall st u s vd s',
  run_pstep st u s = (vd, s') -> vd <> Acc -> ps_stack s' = ps_stack s.
Proof. exact run_pstep_not_acc_restores. Qed.
Print Assumptions C13_failed_use_leaves_nothing_behind.

(* parameter stage: the blamed parameter k does not accept given the parameters before it, and the bindings listed (axes
   AND structure names) are exactly the frame established by those parameters *)
Theorem C13_pytree_param_error_truthful : forall st params ret s0 k fr s',
  pcall_new st params ret s0 = (PCTypeCheck SParams (Some k) fr, s') ->
  exists sw vw pre u post s1 vd,
    pwalk st params s0 = (vw, sw) /\ vw <> Acc /\
    params = (pre ++ u :: post)%list /\ k = length pre /\
    pwalk st pre sw = (Acc, s1) /\ fst (run_pstep st u s1) = vd /\ vd <> Acc /\
    fr = top_frame s1.
Proof.
  intros st params ret s0 k fr s' H. destruct (pcall_typecheck_cases _ _ _ _ _ _ _ _ H) as [-> (vw & sw & Hw & Hv & Hp)].
  destruct (pproblem_blames_first_failure _ _ _ _ _ _ Hp) as (pre & u & post & s1 & vd & Hus & -> & Hpre & Hu & Hvd & Hs).
  exists sw, vw, pre, u, post, s1, vd. rewrite Hu. repeat split; auto. now apply top_frame_of_stack.
Qed.
Print Assumptions C13_pytree_param_error_truthful.

(* the return stage: every parameter passed in the first walk; the second walk (the parameters again, then the return value)
   stopped at some use, and the frame listed holds the bindings made before that use and nothing of it *)
Theorem C13_pytree_return_error_truthful : forall st params ret s0 k fr s',
  pcall_new st params ret s0 = (PCTypeCheck SReturn k fr, s') ->
  exists s1 r pre u post s2 vd, pwalk st params s0 = (Acc, s1) /\ ret = Some r /\
    (params ++ [r] = pre ++ u :: post)%list /\ pwalk st pre s1 = (Acc, s2) /\ fst (run_pstep st u s2) = vd /\ vd <> Acc /\
    fr = top_frame s2.
Proof.
  intros st params ret s0 k fr s' H. destruct (pcall_typecheck_cases _ _ _ _ _ _ _ _ H) as [-> (s1 & r & vd & Hw & -> & Hw2 & Hv)].
  destruct (pwalk_stops_at_first_failure _ _ _ _ _ Hw2 Hv) as (pre & u & post & s2 & Hus & Hpre & Hu & Hs).
  exists s1, r, pre, u, post, s2, vd. rewrite Hu. repeat split; auto. now apply top_frame_of_stack.
Qed.
Print Assumptions C13_pytree_return_error_truthful.

Theorem C13_pytree_success_iff_both_walks_accept : forall st params ret s0 s',
  pcall_new st params ret s0 = (PCOk, s') <->
  exists s1, pwalk st params s0 = (Acc, s1) /\
             match ret with None => s' = s1 | Some r => pwalk st (params ++ [r]) s1 = (Acc, s') end.
Proof.
  intros st params ret s0 s'. unfold pcall_new. split.
  - destruct (pwalk st params s0) as [[| |e] s1].
    + destruct ret as [r|]; [|intros [= <-]; eauto].
      destruct (pwalk st (params ++ [r]) s1) as [[| |e2] s2] eqn:E2; [intros [= <-]; eauto | discriminate|].
      destruct (converted e2); discriminate.
    + destruct (pproblem st params 0 s1) as [[k|e] s2]; discriminate.
    + destruct (converted e); [destruct (pproblem st params 0 s1) as [[k|e'] s2]|]; discriminate.
  - intros [s1 [Hw Hr]]. rewrite Hw. destruct ret as [r|]; [rewrite Hr|subst]; reflexivity.
Qed.
Print Assumptions C13_pytree_success_iff_both_walks_accept.

Theorem C13_pytree_annotation_error_passes_through : forall st params ret s0,
  (exists s1, pwalk st params s0 = (Raise AnnotationErr, s1)) \/
  (exists s1 r s2, pwalk st params s0 = (Acc, s1) /\ ret = Some r /\ pwalk st (params ++ [r]) s1 = (Raise AnnotationErr, s2)) ->
  fst (pcall_new st params ret s0) = PCRaise AnnotationErr.
Proof.
  intros st params ret s0. unfold pcall_new. intros [[s1 H]|[s1 [r [s2 [H1 [-> H2]]]]]].
  - rewrite H. reflexivity.
  - rewrite H1, H2. reflexivity.
Qed.
Print Assumptions C13_pytree_annotation_error_passes_through.

(* f(w: "m", x: PyTree[Float "?k m", "T"], z: "m") with w (5,), x = ((2,5), (3,4)), z (5,): x is blamed (its second leaf
   breaks m); the listing has m=5 only -- neither the first leaf's `(Leaf 0 in structure T) k=2` nor T itself *)
Example C13_pytree_nonvacuous :
  let arr sh := Leaf (PArr (mkvalue true true "float32" sh)) in
  run_pcall [] [] [PSArr (AC None "m") (mkvalue true true "float32" [5]%Z);
                   PSTree (Some (LArr (AC None "?k m"))) (Some "T") (Node KTuple [arr [2; 5]%Z; arr [3; 4]%Z]);
                   PSArr (AC None "m") (mkvalue true true "float32" [5]%Z)] None
  = "TypeCheckError params blamed=1 S{m=5} V{} T{}".
Proof. vm_compute. reflexivity. Qed.

(* the wrapper formats the context AS IT IS when the message is built: every shape_str(..) in _decorator.py is given
   get_shape_memo() (read from the AST, gen/Brackets.v) -- the model's `m = get_memo s'` above; the defect repaired by
   /repo 095bda1 was a message built from a tuple captured at push time *)
Theorem C13_messages_read_the_live_context : messages_read_live_memo = true.
Proof. reflexivity. Qed.
Print Assumptions C13_messages_read_the_live_context.
