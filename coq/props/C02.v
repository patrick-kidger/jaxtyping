(* C02 -- a checked call is accepted iff one consistent axis assignment exists; the verdict
   does not depend on the order in which the parameters are walked.
   `walk` = what a typechecker does with the annotated parameters (and the return value)
   of one call: isinstance on each in turn, in one fresh context. *)
From JT Require Import model.Check proofs.CheckFacts.
From Coq Require Import Permutation.
Open Scope string_scope.

Theorem C02_gamma_never_empty : forall m : memo, exists e, gamma m e.
Proof. intros m. eexists. apply gamma_nonempty. Qed.
Print Assumptions C02_gamma_never_empty.

Theorem C02_walk_accept : forall lbl st us m s s',
  Forall (fun u => wf_annot (fst u)) us ->
  walk lbl st us (m :: s) = (Acc, s') ->
  exists m', s' = m' :: s /\ margs m' = margs m /\
             forall e, gamma m' e <-> gamma m e /\ Forall (full_sat lbl st (margs m) e) us.
Proof. exact walk_acc. Qed.
Print Assumptions C02_walk_accept.

Theorem C02_walk_reject : forall lbl st us m s s',
  Forall (fun u => wf_annot (fst u)) us ->
  walk lbl st us (m :: s) = (Rej, s') ->
  forall e, gamma m e -> ~ Forall (full_sat lbl st (margs m) e) us.
Proof. exact walk_rej. Qed.
Print Assumptions C02_walk_reject.

(* the walk over the uses of one call starts from a fresh context *)
Theorem C02_accept_iff_consistent_assignment : forall lbl st us args vd s',
  Forall (fun u => wf_annot (fst u)) us ->
  walk lbl st us (push_memo [] args) = (vd, s') ->
  (forall x, vd <> Raise x) ->
  (vd = Acc <-> exists e, Forall (full_sat lbl st args e) us).
Proof. intros lbl st us args vd s' Hwf H Hnr. rewrite <- (ex_gamma_fresh args). exact (walk_iff_sat_from _ _ _ _ _ _ _ Hwf H Hnr). Qed.
Print Assumptions C02_accept_iff_consistent_assignment.

Theorem C02_order_independent : forall lbl st us us' args vd vd' s1 s2,
  Permutation us us' ->
  Forall (fun u => wf_annot (fst u)) us ->
  walk lbl st us (push_memo [] args) = (vd, s1) ->
  walk lbl st us' (push_memo [] args) = (vd', s2) ->
  (forall x, vd <> Raise x) -> (forall x, vd' <> Raise x) ->
  vd = vd'.
Proof. intros lbl st us us' args. apply walk_order_independent_from. Qed.
Print Assumptions C02_order_independent.

(* non-vacuity: f(x: "#n", y: "n") with shapes (1,), (3,) is accepted in both orders,
   and *#v (1,3), *#v (2,1), *v (2,3) in two different orders *)
Example C02_nonvacuous :
  let A s := match parse_dims s with Ok d => mkannot false None d false | Err _ => mkannot false None (mkdims [] None) true end in
  let V sh := mkvalue true true "float32" sh in
  let x := (A "#n", V [1]%Z) in let y := (A "n", V [3]%Z) in
  let p := (A "*#v", V [1; 3]%Z) in let q := (A "*#v", V [2; 1]%Z) in let r := (A "*v", V [2; 3]%Z) in
  fst (walk None [] [x; y] (push_memo [] [])) = Acc /\ fst (walk None [] [y; x] (push_memo [] [])) = Acc /\
  fst (walk None [] [p; q; r] (push_memo [] [])) = Acc /\ fst (walk None [] [r; q; p] (push_memo [] [])) = Acc /\
  fst (walk None [] [r; p; (A "*v", V [2; 4]%Z)] (push_memo [] [])) = Rej.
Proof. vm_compute. repeat split. Qed.

(* the decorated call: two passes *)
From JT Require Import model.Wrapper proofs.TwoPassFacts.

(* uses that were accepted are accepted again, unchanged, from every later state of the same context: the wrapper's
   second pass over the parameters (before the return value) changes nothing *)
Theorem C02_rewalk_changes_nothing : forall lbl st us m s s',
  Forall (fun u => wf_annot (fst u)) us ->
  walk lbl st us (m :: s) = (Acc, s') ->
  exists m', s' = m' :: s /\ mle m m' /\ forall mx, mle m' mx -> walk lbl st us (mx :: s) = (Acc, mx :: s).
Proof. intros lbl st us m s s' _. apply walk_again. Qed.
Print Assumptions C02_rewalk_changes_nothing.

Theorem C02_two_pass : forall lbl st params r s0 s1,
  Forall (fun u => wf_annot (fst u)) params ->
  walk lbl st params s0 = (Acc, s1) -> s0 <> [] ->
  walk lbl st (params ++ [r]) s1 = walk lbl st [r] s1 /\ walk lbl st (params ++ [r]) s0 = walk lbl st [r] s1.
Proof. intros lbl st params r s0 s1 _ Hw _. exact (second_pass_is_return_check lbl st params r s0 s1 Hw). Qed.
Print Assumptions C02_two_pass.

(* the statement of the property for the wrapper as a whole (wrapped_fn_impl: parameters, body, parameters + return value):
   the call succeeds iff ONE assignment satisfies every parameter and the return value *)
Theorem C02_call_succeeds_iff_consistent_assignment : forall lbl st params r args vd s',
  Forall (fun u => wf_annot (fst u)) (params ++ [r]) ->
  walk lbl st (params ++ [r]) (push_memo [] args) = (vd, s') -> (forall x, vd <> Raise x) ->
  (fst (call_new lbl st params (Some r) (push_memo [] args)) = CROk <->
   exists e, Forall (full_sat lbl st args e) (params ++ [r])).
Proof. exact call_succeeds_iff_consistent_assignment. Qed.
Print Assumptions C02_call_succeeds_iff_consistent_assignment.

(* unions of array annotations: resolved greedily, so NOT "accepted iff a consistent assignment exists" *)
(* a typechecker tries the alternatives of Union[A1, A2, ..] in turn against the shared context and keeps the first that accepts
   (model/UnionWalk.v).  With single alternatives this is the walk above; with real unions the statement of the property is
   REFUTED in the model -- the witness below is replayed on the implementation by the C02 check (known finding F-C02-union-greedy) *)
From JT Require Import model.UnionWalk proofs.UnionFacts.
Theorem C02_union_walk_of_single_alternatives_is_the_walk : forall lbl st us s,
  walk_union lbl st (map (fun u => ([fst u], snd u)) us) s = walk lbl st us s.
Proof.
  intros lbl st us s. revert s. induction us as [|[a v] r IH]; intros s; [reflexivity|].
  cbn [map walk_union try_alts walk fst snd]. destruct (instancecheck false lbl st a v s) as [[| |e] s']; try reflexivity.
  apply IH.
Qed.
Print Assumptions C02_union_walk_of_single_alternatives_is_the_walk.

Theorem C02_union_alternatives_resolved_greedily_refuted :
  let U := [AU "n"; AU "n+1"] in
  let x := VU [4%Z] in let y := VU [3%Z] in
  fst (walk_union None st_n1 [(U, x); (U, y)] (push_memo [] [])) = Rej /\
  fst (walk_union None st_n1 [(U, y); (U, x)] (push_memo [] [])) = Acc /\
  exists e, Forall (full_sat None st_n1 [] e) [(AU "n", y); (AU "n+1", x)].
Proof.
  cbv zeta. split; [vm_compute; reflexivity|]. split; [vm_compute; reflexivity|].
  (* in this order the plain walk accepts, so an assignment exists *)
  eapply (C02_accept_iff_consistent_assignment None st_n1 _ [] Acc); [|vm_compute; reflexivity | discriminate | reflexivity].
  constructor; [|constructor; [|constructor]]; (split; [vm_compute; reflexivity | intros i Hi; vm_compute in Hi; discriminate]).
Qed.
Print Assumptions C02_union_alternatives_resolved_greedily_refuted.
