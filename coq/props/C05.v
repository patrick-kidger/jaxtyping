(* C05 -- bindings live exactly as long as one jaxtyped call or context block.
   Programs (model/Prog.v): manual checks, print_bindings, decorated calls of three styles with
   exits by return / Exception / BaseException / generator creation / non-binding arguments /
   failing parameter check, context blocks, try/except -- nested to any depth. *)
From JT Require Import model.Prog proofs.ProgFacts.
Open Scope string_scope.

(* a decorated call or a context block, however it ends (return, Exception, BaseException,
   non-binding arguments, failed parameter check) leaves the WHOLE stack exactly as it was *)
Theorem C05_block_restores_callers_bindings : forall lbl st p s s' ev sg,
  match p with
  | PCall _ _ _ _ XGenerator => False
  | PCall _ _ _ _ _ | PContext _ _ => True
  | _ => False
  end ->
  run lbl st p s = (s', ev, sg) -> s' = s.
Proof. intros lbl st p s s' ev sg Hb H. exact (proj2 (proj1 (run_below lbl st) p _ _ _ _ H) Hb). Qed.
Print Assumptions C05_block_restores_callers_bindings.

(* a generator function: the context is closed when the call returns; what the generator does
   when the caller iterates it happens in the caller's own context *)
Theorem C05_generator_does_not_keep_context : forall lbl st sty ps body s,
  run lbl st (PCall sty true ps body XGenerator) s =
  match sty with
  | SNone => run_list lbl st body s
  | _ => match walk lbl st ps (push_memo s []) with
         | (Acc, _) => run_list lbl st body s
         | (Rej, _) => (s, [], Some OtherExc)
         | (Raise e, _) => (s, [], Some (match e with AnnotationErr => AnnotationErr | BaseExc => BaseExc | _ => OtherExc end))
         end
  end.
Proof.
  intros lbl st sty ps body s. rewrite run_call_style, run_call. cbn [negb]. destruct sty; [| |reflexivity];
    destruct (walk lbl st ps (push_memo s [])) as [vd s1] eqn:Ew;
    rewrite (pop_after_walk _ _ _ _ _ _ Ew _ (below_refl _)); destruct vd; reflexivity.
Qed.
Print Assumptions C05_generator_does_not_keep_context.

(* any program: the contexts below the current one are untouched, the depth is unchanged *)
Theorem C05_enclosing_contexts_untouched : forall lbl st ps s s' ev sg,
  run_list lbl st ps s = (s', ev, sg) -> length s' = length s /\ tl s' = tl s.
Proof. intros lbl st ps s s' ev sg. apply run_below. Qed.
Print Assumptions C05_enclosing_contexts_untouched.

(* outside every context nothing persists *)
Theorem C05_toplevel_stateless : forall lbl st ps s' ev sg,
  run_list lbl st ps [] = (s', ev, sg) -> s' = [].
Proof. intros lbl st ps s' ev sg H. apply C05_enclosing_contexts_untouched in H as [L _]. now apply length_zero_iff_nil. Qed.
Print Assumptions C05_toplevel_stateless.

(* inside a call the first observation sees only what the call's own parameters bound *)
Theorem C05_fresh_context : forall lbl st ps rest s s1,
  walk lbl st ps (push_memo s []) = (Acc, s1) ->
  exists ev sg, run lbl st (PCall SNew true ps (PObserve :: rest) XReturn) s = (s, EvBindings (get_memo s1) (S (length s)) :: ev, sg) /\
  (ps = [] -> get_memo s1 = empty_memo).
Proof.
  intros lbl st ps rest s s1 Hw. rewrite run_call. cbn [negb]. rewrite Hw. cbn [run_list run].
  destruct (run_list lbl st rest s1) as [[s2 ev2] sg2] eqn:Er.
  rewrite (pop_after_walk _ _ _ _ _ _ Hw _ (proj2 (run_below _ _) _ _ _ _ _ Er)), (proj1 (walk_below _ _ _ _ _ _ Hw)).
  exists ev2, (match sg2 with Some e => Some e | None => None end). split.
  - destruct sg2; reflexivity.
  - intros ->. cbn in Hw. inversion Hw; subst. reflexivity.
Qed.
Print Assumptions C05_fresh_context.

Example C05_nonvacuous :
  run_prog [PContext [PCheck (A "n", V [3]%Z);
                      PTry [PCall SNew true [(A "n", V [4]%Z)] [PObserve; PCheck (A "n m", V [4; 5]%Z)] (XRaise true)];
                      PObserve; PCheck (A "n", V [4]%Z)] XReturn; PObserve]
  = "v:acc b:2:S{n=4} V{} v:acc x:BaseException b:1:S{n=3} V{} v:rej b:0:S{} V{} | depth=0 sig=-".
Proof. vm_compute. reflexivity. Qed.

(* the model pops the context on every exit of a call or block; the source does so exactly when each push_shape_memo is
   directly followed by try/finally pop_shape_memo() with no suspension point inside, the context block pops once
   unconditionally in __exit__, and pop itself is unconditional -- read from the AST (gen/Brackets.v) *)
From JT Require Import gen.Brackets.
Theorem C05_push_pop_is_bracketed_in_the_source : push_pop_bracketed = true /\ pop_unconditional = true.
Proof. split; reflexivity. Qed.
Print Assumptions C05_push_pop_is_bracketed_in_the_source.

(* the interpreter with the wrapper's try/finally as a parameter (model/ProgSrc.v): instantiated with what the source
   says now it IS model/Prog.v's interpreter and every block restores the caller's bindings; with the pop placed after
   the body instead, a call whose body raises leaves its context behind (model witness) *)
From JT Require Import model.ProgSrc proofs.ProgSrcFacts.
Theorem C05_interpreter_as_in_source_is_the_model : forall lbl st p s,
  run_src push_pop_bracketed lbl st p s = run lbl st p s.
Proof. intros lbl st p. apply run_src_true_is_run_both. Qed.
Print Assumptions C05_interpreter_as_in_source_is_the_model.

Theorem C05_block_as_in_source_restores_callers_bindings : forall lbl st p s s' ev sg,
  match p with
  | PCall _ _ _ _ XGenerator => False
  | PCall _ _ _ _ _ | PContext _ _ => True
  | _ => False
  end ->
  run_src push_pop_bracketed lbl st p s = (s', ev, sg) -> s' = s.
Proof. intros lbl st p s s' ev sg. rewrite C05_interpreter_as_in_source_is_the_model. apply C05_block_restores_callers_bindings. Qed.
Print Assumptions C05_block_as_in_source_restores_callers_bindings.

(* a pop placed after the body instead of in a finally: a decorated call whose body raises leaves its context behind *)
Theorem C05_pop_after_body_refuted : exists lbl st p s s' ev sg,
  match p with PCall _ _ _ _ XGenerator => False | PCall _ _ _ _ _ => True | _ => False end /\
  run_src false lbl st p s = (s', ev, sg) /\ s' <> s.
Proof.
  exists None, [], (PCall SNew true [(A "n", V [3]%Z)] [] (XRaise false)), [].
  eexists. eexists. eexists. split; [exact I|]. split; [vm_compute; reflexivity | discriminate].
Qed.
Print Assumptions C05_pop_after_body_refuted.

(* the context stack's accessor functions and the context manager, AS REGENERATED FROM jaxtyping/_storage.py and
   jaxtyping/_decorator.py on every run (gen/StorageSrc.v, a term of model/SL.v): interpreting the source gives exactly the
   stack operations the models above are built from, in every state of the thread's storage *)
From JT Require Import model.SL gen.StorageSrc proofs.SLFacts.
Theorem C05_stack_accessors_as_in_source_are_the_models_operations : forall s,
  (forall args r s', run_acc storage_src "push_shape_memo" [SVDict args] s = Some (r, s') ->
     abs_stack s' = push_memo (abs_stack s) (dA args)) /\
  (forall r s', run_acc storage_src "pop_shape_memo" [] s = Some (r, s') ->
     match abs_stack s with [] => r <> SRVal SVNone /\ s' = s | _ => r = SRVal SVNone /\ abs_stack s' = pop_memo (abs_stack s) end) /\
  (forall v s', run_acc storage_src "get_shape_memo" [] s = Some (SRVal v, s') ->
     s' = s /\ fst (dec_frame v) = get_memo (abs_stack s)) /\
  (forall a b c d r s', run_acc storage_src "set_shape_memo" [a; b; c; d] s = Some (r, s') ->
     abs_stack s' = set_memo (abs_stack s) (fst (dec_frame (SVTuple [a; b; c; d])))).
Proof.
  intros s. split; [|split; [|split]].
  - intros args r s'. rewrite run_acc_storage, push_shape_memo_spec. intros [= _ <-]. apply abs_stack_push.
  - intros r s'. rewrite run_acc_storage, pop_shape_memo_spec. intros [= H%pop_result_is_pop_memo]. destruct (abs_stack s); tauto.
  - intros v s'. rewrite run_acc_storage, get_shape_memo_spec. intros [= H <-]. split; [reflexivity|].
    assert (E : dec_frame v = dec_frame (cur_frame s)).
    { destruct (cur_frame s) as [| | | | |[|a [|b [|c [|d [|? ?]]]]]| |]; try discriminate. now injection H as <-. }
    rewrite E, cur_frame_abs. unfold abs_stack, top_frame. destruct (ps_stack (abs_store s)); reflexivity.
  - intros a b c d r s'. rewrite run_acc_storage, set_shape_memo_spec. intros [= _ <-]. unfold abs_stack. rewrite restore_top_abs.
    unfold set_top. destruct (ps_stack (abs_store s)) eqn:E; [rewrite E|]; reflexivity.
Qed.
Print Assumptions C05_stack_accessors_as_in_source_are_the_models_operations.

(* __enter__ is push_memo with no arguments; __exit__ is pop_memo (whatever the exception arguments are) *)
Theorem C05_context_manager_as_in_source_is_push_then_pop : forall self e1 e2 e3 s,
  (forall r s', run_acc context_src "__enter__" [self] s = Some (r, s') ->
     r = SRVal SVNone /\ abs_stack s' = push_memo (abs_stack s) [] /\
     ps_stack (abs_store s') = (empty_memo, []) :: ps_stack (abs_store s) /\
     ps_path (abs_store s') = ps_path (abs_store s) /\ ps_flat (abs_store s') = ps_flat (abs_store s)) /\
  (forall r s', run_acc context_src "__exit__" [self; e1; e2; e3] s = Some (r, s') ->
     match abs_stack s with
     | [] => r <> SRVal SVNone /\ s' = s
     | _ => r = SRVal SVNone /\ abs_stack s' = pop_memo (abs_stack s) /\
            ps_path (abs_store s') = ps_path (abs_store s) /\ ps_flat (abs_store s') = ps_flat (abs_store s)
     end).
Proof.
  intros self e1 e2 e3 s. split; intros r s'.
  - rewrite context_enter_spec. intros [= <- <-]. rewrite abs_stack_push, abs_push. repeat split.
  - rewrite context_exit_spec. intros [= H]. exact (pop_result_is_pop_memo s r s' H).
Qed.
Print Assumptions C05_context_manager_as_in_source_is_push_then_pop.

(* the object carries no state: what __enter__ / __exit__ do never depends on WHICH context object they are called on (nor on
   the exception being propagated), so one object may be shared, re-entered while entered, or used by several threads *)
Theorem C05_context_object_as_in_source_is_stateless : forall self self' e1 e2 e3 e1' e2' e3' s,
  run_acc context_src "__enter__" [self] s = run_acc context_src "__enter__" [self'] s /\
  run_acc context_src "__exit__" [self; e1; e2; e3] s = run_acc context_src "__exit__" [self'; e1'; e2'; e3'] s /\
  context_call_returns_new_object = true.
Proof. intros self self' e1 e2 e3 e1' e2' e3' s. rewrite !context_enter_spec, !context_exit_spec. repeat split. Qed.
Print Assumptions C05_context_object_as_in_source_is_stateless.

Theorem C05_nested_context_blocks_as_in_source_restore_the_store : forall n s,
  abs_store (exit_n n (enter_n n s)) = abs_store s.
Proof. exact nested_context_blocks_restore. Qed.
Print Assumptions C05_nested_context_blocks_as_in_source_restore_the_store.

(* the hypotheses `wf_cells`, `wf_top` of the theorems about the regenerated storage layer hold in every state the accessors
   and the context manager can reach from a fresh thread, through any sequence of calls with dictionary arguments *)
Theorem C05_reachable_storage_states_are_well_formed : forall ops,
  wf_state (state_after context_src ops (mktls None None None)) /\ wf_top (state_after context_src ops (mktls None None None)).
Proof. exact reachable_states_are_well_formed. Qed.
Print Assumptions C05_reachable_storage_states_are_well_formed.

(* the wrapper that jaxtyped(typechecker=...)(fn) returns, AS REGENERATED FROM THE SOURCE on every run (gen/StorageSrc.v:
   src_wrapped_fn, interpreted by model/SL.v), with everything it calls that is not a storage accessor an arbitrary function
   `ext`: it is the transparent call when switched off, and otherwise bind -- push one context with the bound arguments -- run
   wrapped_fn_impl -- pop one context, whatever wrapped_fn_impl returned or raised *)
From JT Require Import proofs.SLWrapFacts.
Theorem C05_decorated_call_wrapper_as_in_source : forall ext a k c f p h i s,
  run_ext ext wrapped_src "wrapped_fn" [a; k; c; f; p; h; i] s = Some (wrapped_spec ext a k f s).
Proof. exact wrapped_fn_as_in_source. Qed.
Print Assumptions C05_decorated_call_wrapper_as_in_source.

Theorem C05_checked_call_as_in_source_pushes_once_and_pops_once : forall ext a k s b s1 v s2 d s3,
  ext "param_signature.bind" [a; k] s = (SRVal b, s1) ->
  ext "bound.apply_defaults" [] s1 = (SRVal v, s2) ->
  ext "bound.arguments" [] s2 = (SRVal (SVDict d), s3) ->
  let s4 := with_stack s3 (Some (stack_or_nil s3 ++ [new_frame d])%list) in
  abs_stack s4 = push_memo (abs_stack s3) (dA d) /\
  forall r s5, ext "wrapped_fn_impl" [a; k; b; new_frame d] s4 = (r, s5) -> abs_stack s5 <> [] ->
    exists s', checked_call ext a k s = (r, s') /\ abs_stack s' = pop_memo (abs_stack s5) /\
               ps_path (abs_store s') = ps_path (abs_store s5) /\ ps_flat (abs_store s') = ps_flat (abs_store s5).
Proof. exact checked_call_brackets. Qed.
Print Assumptions C05_checked_call_as_in_source_pushes_once_and_pops_once.

Theorem C05_decorated_call_as_in_source_keeps_the_stack_depth : forall ext,
  (forall g l st, length (abs_stack (snd (ext g l st))) = length (abs_stack st)) ->
  forall a k c f p h i s r s',
  run_ext ext wrapped_src "wrapped_fn" [a; k; c; f; p; h; i] s = Some (r, s') ->
  length (abs_stack s') = length (abs_stack s).
Proof.
  intros ext N a k c f p h i s r s'. rewrite wrapped_fn_as_in_source. intros [= E].
  rewrite <- (wrapped_spec_depth ext N a k f s), E. reflexivity.
Qed.
Print Assumptions C05_decorated_call_as_in_source_keeps_the_stack_depth.

(* the old spelling jaxtyped(typechecker(fn)): PARTIAL.  Proved: when the wrapped function returns, or raises a BaseException that
   is not an Exception, exactly one context is pushed before it and exactly one is popped after it.  Not proved (only run against
   CPython by the correspondence check): the `except Exception as e:` path, whose handler reads the context to add a note. *)
Theorem C05_old_style_call_as_in_source_brackets_partial : forall ext a k p3 p4 p5 p6 p7 p8 p9 p10 s b s1 v s2 d s3 r s5,
  ext "signature.bind" [a; k] s = (SRVal b, s1) ->
  ext "bound.apply_defaults" [] s1 = (SRVal v, s2) ->
  ext "bound.arguments" [] s2 = (SRVal (SVDict d), s3) ->
  let s4 := with_stack s3 (Some (stack_or_nil s3 ++ [new_frame d])%list) in
  ext "fn" [a; k] s4 = (r, s5) ->
  (exists w, r = SRVal w) \/ r = SRExn XBase ->
  abs_stack s5 <> [] ->
  exists s', run_ext ext wrapped_src "old_wrapped_fn" [a; k; p3; p4; p5; p6; p7; p8; p9; p10] s = Some (r, s') /\
             abs_stack s' = pop_memo (abs_stack s5) /\
             ps_path (abs_store s') = ps_path (abs_store s5) /\ ps_flat (abs_store s') = ps_flat (abs_store s5).
Proof.
  intros ext a k p3 p4 p5 p6 p7 p8 p9 p10 s b s1 v s2 d s3 r s5 H1 H2 H3 s4 H5 Hr N.
  rewrite (run_ext_fun _ _ _ src_old_wrapped_fn) by reflexivity.
  rewrite (old_wrapped_fn_run_partial (run_depth ext wrapped_src 2) ext a k _ _ _ _ _ _ _ _ s b s1 v s2 d s3 r s5
             (runs_accessors_2 ext _) H1 H2 H3 H5 Hr).
  destruct (pop_result_brackets r s5 N) as (s' & P & A). exists s'. now rewrite P.
Qed.
Print Assumptions C05_old_style_call_as_in_source_brackets_partial.
